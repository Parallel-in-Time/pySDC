(* C20 — the property theorems, each followed by Print Assumptions.  Where Proofs/DescrProofs.v proves the
   statement itself the theorem is closed by [exact]; where the statement is an instance of a more general
   lemma proved there (named in the proof), it is derived here in a few lines. *)
From Coq Require Import String List ZArith Bool Arith Lia Permutation Sorted.
From PySDC Require Import Model.Descr Proofs.DescrProofs.
Import ListNotations.
Open Scope string_scope.
Open Scope list_scope.

(* (1) Step.__dict_to_list, for every dictionary (any value type): as many entries as the longest
   list (at least one); entry l holds v[min(l, len v - 1)] of a list and v of a scalar; IndexError
   exactly when some list is empty *)
Theorem C20_dict_to_list_length : forall (V : Type) (d : dict (pv V)) ld,
  dict_to_list d = Some ld -> length ld = max_val d.
Proof. exact @dict_to_list_length. Qed.
Print Assumptions C20_dict_to_list_length.

Theorem C20_max_val_is_longest_list : forall (V : Type) (d : dict (pv V)),
  1 <= max_val d /\ (forall k vs, In (k, PList vs) d -> length vs <= max_val d) /\
  (max_val d = 1 \/ exists k vs, In (k, PList vs) d /\ length vs = max_val d).
Proof. intros V d. split; [apply max_val_ge1 | split; [apply max_val_bound | apply max_val_attained]]. Qed.
Print Assumptions C20_max_val_is_longest_list.

Theorem C20_dict_to_list_entry : forall (V : Type) (d : dict (pv V)) ld l dl k p,
  dict_to_list d = Some ld -> nth_error ld l = Some dl -> lookup k d = Some p -> lookup k dl = sel l p.
Proof. exact @dict_to_list_entry. Qed.
Print Assumptions C20_dict_to_list_entry.

Theorem C20_dict_to_list_index_error : forall (V : Type) (d : dict (pv V)),
  dict_to_list d = None <-> exists k, In (k, PList []) d.
Proof. exact @dict_to_list_None. Qed.
Print Assumptions C20_dict_to_list_index_error.

(* (2) the hierarchy of Step.__generate_hierarchy (nested conversion of problem/level/sweeper
   parameters, then of the description): number of levels = longest list anywhere *)
Theorem C20_levels_eq_longest_list : forall d dls, gen_hier d = inr dls -> length dls = nlevels d.
Proof. exact levels_eq_longest_list. Qed.
Print Assumptions C20_levels_eq_longest_list.

(* level l gets v[min(l, len v - 1)] of list-valued problem/level/sweeper parameters, the nested
   application of dict_to_list notwithstanding *)
Theorem C20_entry_selection : forall d dls l dl sec k p,
  gen_hier d = inr dls -> nth_error dls l = Some dl -> In sec converted_keys ->
  lookup k (get_dd sec d) = Some p ->
  exists pd, lookup sec dl = Some (OD pd) /\ lookup k pd = sel l p.
Proof. exact entry_selection. Qed.
Print Assumptions C20_entry_selection.

Theorem C20_entry_selection_outer : forall d dls l dl k p,
  gen_hier d = inr dls -> nth_error dls l = Some dl -> mem_str k converted_keys = false ->
  lookup k d = Some (DV p) -> lookup k dl = option_map OA (sel l p).
Proof. exact entry_selection_outer. Qed.
Print Assumptions C20_entry_selection_outer.

Theorem C20_scalar_shared : forall d dls l dl sec k v,
  gen_hier d = inr dls -> nth_error dls l = Some dl -> In sec converted_keys ->
  lookup k (get_dd sec d) = Some (Scalar v) ->
  exists pd, lookup sec dl = Some (OD pd) /\ lookup k pd = Some v.
Proof. exact scalar_shared. Qed.
Print Assumptions C20_scalar_shared.

(* which descriptions __generate_hierarchy accepts *)
Theorem C20_hierarchy_complete : forall d, (exists dls, gen_hier d = inr dls) <-> DescrOK d.
Proof. exact gen_hier_complete. Qed.
Print Assumptions C20_hierarchy_complete.

(* (3) the verdict of construction + first use.
   Full-strength statement wanted by the property (every listed name is rejected when unknown):
       forall E n cp d, (exists lvs, build E n cp d = Built lvs) <-> WellFormedStrict E n cp d
   The faithful model REFUTES it (an unknown predictor on a single level and an unknown initial
   guess on a coarse level are never used by the code, hence never rejected): *)
Theorem C20_validate_strict_refuted :
  exists E nprocs cp d lvs, build E nprocs cp d = Built lvs /\ ~ WellFormedStrict E nprocs cp d.
Proof. exists E_ex, 1, [("predict_type", AStr "bogus")], d_ex. apply strict_refuted. vm_compute. reflexivity. Qed.
Print Assumptions C20_validate_strict_refuted.

Theorem C20_validate_strict_refuted_coarse_guess :
  exists E nprocs cp d lvs, build E nprocs cp d = Built lvs /\ ~ WellFormedStrict E nprocs cp d.
Proof. exists E_ex, 1, [], d_ex2. apply strict_refuted. vm_compute. reflexivity. Qed.
Print Assumptions C20_validate_strict_refuted_coarse_guess.

(* proved: completeness w.r.t. the well-formedness predicate that asks for known names where the
   code uses them: WellFormed = PreOK /\ DescrOK /\ every level LevelOK /\ PostOK /\ UseOK, where the
   levels are the ones gen_hier and inst_levels produce (WellFormed names them by these two equations;
   what the two functions accept is C20_hierarchy_complete and inst_levels_ok) *)
Theorem C20_validate_complete_partial : forall E nprocs cp d,
  (exists lvs, build E nprocs cp d = Built lvs) <-> WellFormed E nprocs cp d.
Proof. exact validate_complete_partial. Qed.
Print Assumptions C20_validate_complete_partial.

Theorem C20_invalid_rejected : forall E nprocs cp d,
  ~ WellFormed E nprocs cp d <-> exists ph e r, build E nprocs cp d = Rejected ph e r.
Proof.
  intros E nprocs cp d. rewrite <- validate_complete_partial. destruct (build E nprocs cp d) as [lvs|ph e r].
  - split; [intros H; exfalso; apply H; eauto | intros [? [? [? H]]]; discriminate].
  - split; [eauto | intros _ [? H]; discriminate].
Qed.
Print Assumptions C20_invalid_rejected.

(* each kind of fault maps to its exception class and phase *)
Theorem C20_rejection_class : forall E nprocs cp d ph e r,
  build E nprocs cp d = Rejected ph e r -> e = exn_of_reason r /\ ph = phase_of_reason r.
Proof. exact rejection_class. Qed.
Print Assumptions C20_rejection_class.

(* single faults, each stated for the function that detects it: the first four for build, coarse_sweeps and
   pfasst_right_node for post_checks, unknown_quad and unknown_QI for inst_sweeper *)
Theorem C20_fault_missing_essential : forall E nprocs cp d k,
  PreOK cp -> has "dtype_u" d = false -> has "dtype_f" d = false ->
  In k essential_keys -> has k d = false ->
  exists k', build E nprocs cp d = Rejected Construct ParameterError (RMissing k').
Proof.
  intros E nprocs cp d k Hp Hu Hf Hk Hn. destruct (check_essential d) as [e|] eqn:C.
  - destruct (check_essential_Some C) as [k' ->]. exists k'. apply (build_hier_fail _ _ Hp).
    unfold gen_hier. now rewrite (proj2 (check_deprecated_None d) (conj Hu Hf)), C.
  - rewrite check_essential_None in C. rewrite (C k Hk) in Hn. discriminate.
Qed.
Print Assumptions C20_fault_missing_essential.

Theorem C20_fault_no_space_transfer : forall E nprocs cp d,
  PreOK cp -> has "dtype_u" d = false -> has "dtype_f" d = false ->
  (forall k, In k essential_keys -> has k d = true) ->
  (forall k, In (k, DV (PList [])) d -> mem_str k converted_keys = true) ->
  (forall sec, In sec converted_keys -> forall k, ~ In (k, PList []) (get_dd sec d)) ->
  1 < nlevels d -> truthy_dval (lookup_or "space_transfer_class" (with_defaults d) (DD [])) = false ->
  build E nprocs cp d = Rejected Construct ParameterError RNoSpaceTransfer.
Proof.
  intros E nprocs cp d Hp Hu Hf Hess Hout Hsec Hn Ht. destruct (gen_hier_lists_ok d Hu Hf Hess Hout Hsec) as [dls [_ Hg]].
  rewrite (proj2 (Nat.ltb_lt _ _) Hn), Ht in Hg. exact (build_hier_fail _ _ Hp Hg).
Qed.
Print Assumptions C20_fault_no_space_transfer.

Theorem C20_fault_deprecated : forall E nprocs cp d,
  PreOK cp -> has "dtype_u" d = true \/ has "dtype_f" d = true ->
  exists k, build E nprocs cp d = Rejected Construct ParameterError (RDeprecated k).
Proof.
  intros E nprocs cp d Hp Hd. destruct (check_deprecated d) as [e|] eqn:C.
  - destruct (check_deprecated_Some C) as [k ->]. exists k. apply (build_hier_fail _ _ Hp). unfold gen_hier. now rewrite C.
  - apply check_deprecated_None in C. destruct C, Hd; congruence.
Qed.
Print Assumptions C20_fault_deprecated.

Theorem C20_fault_predict_flag : forall E nprocs cp d, has "predict" cp = true ->
  build E nprocs cp d = Rejected Construct ControllerError RPredictFlag.
Proof. intros E nprocs cp d H. unfold build, pre_checks. now rewrite H. Qed.
Print Assumptions C20_fault_predict_flag.

Theorem C20_fault_coarse_sweeps : forall nprocs cp d lvs,
  (truthy_atom (lookup_or "dump_setup" cp (ABool true)) = true -> has "step_params" d = true) ->
  (1 < nprocs -> forall L, In L lvs -> lv_right_is_node L = true) ->
  1 < length lvs -> int_gt1 (lookup_or "nsweeps" (lv_lp (coarsest lvs)) ANone) = true ->
  post_checks nprocs cp d lvs = Some (ControllerError, RCoarseSweeps).
Proof.
  intros nprocs cp d lvs H1 H2 H3 H4. unfold post_checks. fold (coarsest lvs).
  rewrite (proj2 (guard_dump _ _) H1), (proj2 (guard_right_node _ _ _ _) (fun A _ => H2 A)).
  now rewrite (proj2 (Nat.ltb_lt _ _) H3), H4.
Qed.
Print Assumptions C20_fault_coarse_sweeps.

Theorem C20_fault_pfasst_right_node : forall nprocs cp d lvs L,
  (truthy_atom (lookup_or "dump_setup" cp (ABool true)) = true -> has "step_params" d = true) ->
  1 < nprocs -> 1 < length lvs -> In L lvs -> lv_right_is_node L = false ->
  post_checks nprocs cp d lvs = Some (ControllerError, RPfasstRightNode).
Proof.
  intros nprocs cp d lvs L H1 H2 H3 H4 H5. unfold post_checks.
  assert (Y : forallb lv_right_is_node lvs = false).
  { apply not_true_is_false. intros Y. rewrite forallb_forall in Y. rewrite (Y L H4) in H5. discriminate. }
  now rewrite (proj2 (guard_dump _ _) H1), (proj2 (Nat.ltb_lt _ _) H2), (proj2 (Nat.ltb_lt _ _) H3), Y.
Qed.
Print Assumptions C20_fault_pfasst_right_node.

Theorem C20_fault_unknown_quad : forall E l user z, lookup "num_nodes" user = Some (AInt z) -> (0 < z)%Z ->
  in_names (lookup_or "node_type" user (AStr "LEGENDRE")) (e_node E) = true ->
  in_names (lookup_or "quad_type" user ANone) (e_quad E) = false ->
  inst_sweeper E l user = inl (CollocationError, RQuadType l).
Proof.
  intros E l user z Hn Hz Hnode Hq. rewrite inst_sweeper_eq, Hn. destruct (Z.leb_spec z 0); [lia|]. now rewrite Hnode, Hq.
Qed.
Print Assumptions C20_fault_unknown_quad.

Theorem C20_fault_unknown_QI : forall E l user z, lookup "num_nodes" user = Some (AInt z) -> (0 < z)%Z ->
  in_names (lookup_or "node_type" user (AStr "LEGENDRE")) (e_node E) = true ->
  in_names (lookup_or "quad_type" user ANone) (e_quad E) = true ->
  in_names (lookup_or "QI" user (AStr "IE")) (e_QI E) = false ->
  inst_sweeper E l user = inl (KeyError, RQI l).
Proof.
  intros E l user z Hn Hz Hnode Hq HQ. rewrite inst_sweeper_eq, Hn. destruct (Z.leb_spec z 0); [lia|]. now rewrite Hnode, Hq, HQ.
Qed.
Print Assumptions C20_fault_unknown_QI.

(* non-vacuity of (3): a concrete well-formed setup *)
Example C20_wellformed_nonvacuous : WellFormed E_ex 2 [("logger_level", AInt 30)] d_ex.
Proof. exact wellformed_example. Qed.
Print Assumptions C20_wellformed_nonvacuous.

(* (4) convergence controllers: one instance per class, called in ascending control order, each
   exactly once; acyclic = no class depends (transitively) on itself *)
Theorem C20_controllers_sorted_unique : forall user mpi classes base,
  Forall acyclic classes -> Forall acyclic base ->
  let st := cc_build user mpi classes base in
  NoDup (map ci_id st) /\
  Permutation (cc_order st) (seq 0 (length st)) /\
  Permutation (cc_call_sequence st) st /\
  Sorted Z.le (map control_order (cc_call_sequence st)).
Proof. exact controllers_sorted_unique. Qed.
Print Assumptions C20_controllers_sorted_unique.

(* user-supplied parameters override defaults and parameters passed by dependencies
   (dict_wf / tree_wf: keys of each Python dict are distinct) *)
Theorem C20_user_params_override : forall user mpi classes base,
  (forall cid, dict_wf (user_params user cid)) -> Forall tree_wf classes -> Forall tree_wf base ->
  forall i, In i (cc_build user mpi classes base) ->
  forall k v, lookup k (user_params user (ci_id i)) = Some v -> lookup k (ci_params i) = Some v.
Proof.
  intros user mpi classes base Hu H1 H2. rewrite Forall_forall in H1, H2.
  apply (Forall_forall (overridden user)). unfold cc_build. cbv zeta.
  apply fold_left_inv; [intros; apply cc_add_override; auto; constructor|].
  apply fold_left_inv; [intros; apply cc_add_override; auto; apply Hu | constructor].
Qed.
Print Assumptions C20_user_params_override.

Example C20_controllers_nonvacuous : Forall acyclic cc_ex_classes /\ Forall acyclic cc_ex_base.
Proof. exact cc_example_acyclic. Qed.
Print Assumptions C20_controllers_nonvacuous.

(* (4b) the "already present" test is exact-class membership: every class the user lists and every
   base class of the controller IS instantiated, whatever was registered before (in particular
   instances of classes derived from it) and in whatever order the description lists them; with
   C20_controllers_sorted_unique: exactly once *)
Theorem C20_requested_controllers_present : forall user mpi classes base c,
  In c (classes ++ base) -> In (root_id c) (map ci_id (cc_build user mpi classes base)).
Proof.
  intros user mpi classes base c Hc. unfold cc_build. cbv zeta. apply in_app_iff in Hc. destruct Hc as [Hc|Hc].
  - apply (fold_left_inv (fun s => In (root_id c) (map ci_id s))); [intros; now apply cc_add_incl|].
    exact (cc_adds_roots user mpi (fun c => c) _ _ _ _ Hc).
  - exact (cc_adds_roots user mpi (fun c => c) _ _ _ _ Hc).
Qed.
Print Assumptions C20_requested_controllers_present.

Theorem C20_new_controller_loads_dependencies : forall user mpi st passed cid defaults deps pd,
  ~ In cid (map ci_id st) -> In pd deps ->
  In (root_id (snd pd)) (map ci_id (cc_add user mpi st passed (CC cid defaults deps))).
Proof.
  intros user mpi st passed cid defaults deps pd Hn Hpd. rewrite cc_add_unfold.
  destruct (existsb _ st) eqn:Ex; [apply existsb_ids in Ex; contradiction|].
  rewrite map_app, in_app_iff. left. exact (cc_adds_roots user mpi snd fst _ _ _ Hpd).
Qed.
Print Assumptions C20_new_controller_loads_dependencies.

(* (5) frozen classes and read-only parameters *)
Theorem C20_frozen_rejects_undeclared : forall o k,
  fz_frozen o = true -> ~ In k (fz_attrs o) -> ~ In k (fz_fields o) -> ~ In k (fz_class o) ->
  fz_setattr o k = inl TypeError.
Proof. exact frozen_rejects_undeclared. Qed.
Print Assumptions C20_frozen_rejects_undeclared.

Theorem C20_frozen_accepts_declared : forall o k,
  In k (fz_attrs o) \/ In k (fz_fields o) ->
  exists o', fz_setattr o k = inr o' /\ fz_hasattr o' k = true /\ fz_frozen o' = fz_frozen o /\ fz_attrs o' = fz_attrs o.
Proof. exact frozen_accepts_declared. Qed.
Print Assumptions C20_frozen_accepts_declared.

Theorem C20_readonly_rejected : forall ro k, In k ro -> rp_setattr ro k = Some ReadOnlyError.
Proof. exact readonly_rejected. Qed.
Print Assumptions C20_readonly_rejected.

(* the read-only registry of a problem is the UNION over all registration calls of its class
   hierarchy (parent __init__, child __init__, ...): a name registered read-only by any of them is
   rejected on assignment, and every registered name is listed in params *)
Theorem C20_readonly_union_over_calls : forall calls names k,
  In (names, true) calls -> In k names ->
  rp_setattr (fst (rp_register calls)) k = Some ReadOnlyError /\ In k (rp_params calls).
Proof.
  intros calls names k H1 H2. pose proof (In_rp_register _ _ _ _ H1 H2) as X.
  split; [now apply readonly_rejected | unfold rp_params; apply in_app_iff; now left].
Qed.
Print Assumptions C20_readonly_union_over_calls.

Theorem C20_registered_listed_in_params : forall calls names b k,
  In (names, b) calls -> In k names -> In k (rp_params calls).
Proof.
  intros calls names b k H1 H2. pose proof (In_rp_register _ _ _ _ H1 H2) as X.
  unfold rp_params. apply in_app_iff. destruct b; auto.
Qed.
Print Assumptions C20_registered_listed_in_params.
