(* C08 — property theorems only.  Each is a lemma of Proofs/MPIProofs.v or a few lines from one, and is
   followed by Print Assumptions.  Model: Model/MPI.v (labelled transition system for the point-to-point +
   collective subset of MPI used by pySDC; global state = per-rank histories; programs = deterministic
   reactive processes [prog L]; [eager] = the environment's buffering decision per standard-mode send). *)
From Coq Require Import List Arith Bool ZArith.
From PySDC Require Import Model.MPI Proofs.MPIProofs.
Import ListNotations.

(* (1) diamond: two enabled steps of different ranks commute.  Receives name source and tag by construction of
   the event alphabet; [good] is any class of local states, closed under the program's reactions, in which the
   program never offers a Test (whose outcome depends on timing). *)
Theorem C08_diamond :
  forall (cu : list (list nat)) (L : Type) (P : prog L) (good : L -> Prop),
  (forall w l, good l -> forall q k, P w l <> ATest q k) ->
  forall eager (s : state L) i j tbi tbj s1 s2,
  good_state good s -> i <> j ->
  fire cu eager P s i tbi = Some s1 -> fire cu eager P s j tbj = Some s2 ->
  exists s3, fire cu eager P s1 j tbj = Some s3 /\ fire cu eager P s2 i tbi = Some s3.
Proof. exact fire_diamond. Qed.
Print Assumptions C08_diamond.

(* (2) schedule independence: all complete executions end in the same global state — the same local state and
   the same history (events, matching partners, delivered payloads) on every rank — after the same number of steps *)
Theorem C08_schedule_independent :
  forall (cu : list (list nat)) (L : Type) (P : prog L) (good : L -> Prop),
  (forall w l, good l -> forall q k, P w l <> ATest q k) ->
  (forall eager hs w l tb l' e, good l -> react cu eager P hs w l tb = Some (l', e) -> good l') ->
  forall eager (s : state L) n t m t',
  good_state good s ->
  steps cu eager P n s t -> terminal cu eager P t ->
  steps cu eager P m s t' -> terminal cu eager P t' -> t = t' /\ n = m.
Proof. exact schedule_independent. Qed.
Print Assumptions C08_schedule_independent.

(* (3) if ONE schedule completes then none deadlocks: every execution has at most as many steps, can be
   completed to the same final state, and is never stuck in a state where some rank is not done *)
Theorem C08_one_completes_all_complete :
  forall (cu : list (list nat)) (L : Type) (P : prog L) (good : L -> Prop),
  (forall w l, good l -> forall q k, P w l <> ATest q k) ->
  (forall eager hs w l tb l' e, good l -> react cu eager P hs w l tb = Some (l', e) -> good l') ->
  forall eager (s : state L) n t,
  good_state good s ->
  steps cu eager P n s t -> terminal cu eager P t -> all_done P t ->
  forall m u, steps cu eager P m s u ->
    m <= n /\ steps cu eager P (n - m) u t /\ ~ deadlock cu P eager u.
Proof. exact one_completes_all_complete. Qed.
Print Assumptions C08_one_completes_all_complete.

(* the lemma behind (2) and (3): if ONE execution reaches a terminal state t in n steps then every execution has
   at most n steps and can be completed to t (in particular every schedule terminates) *)
Theorem C08_confluence :
  forall (cu : list (list nat)) (L : Type) (P : prog L) (good : L -> Prop),
  (forall w l, good l -> forall q k, P w l <> ATest q k) ->
  (forall eager hs w l tb l' e, good l -> react cu eager P hs w l tb = Some (l', e) -> good l') ->
  forall eager n (s t : state L),
  good_state good s -> steps cu eager P n s t -> terminal cu eager P t ->
  forall m u, steps cu eager P m s u -> m <= n /\ steps cu eager P (n - m) u t.
Proof. exact confluence_main. Qed.
Print Assumptions C08_confluence.

(* (4) buffering of standard-mode sends: complete executions under any two buffering behaviours end in the
   same state, and one complete execution in which nothing is buffered excludes deadlock for every behaviour *)
Theorem C08_buffering_independent :
  forall (cu : list (list nat)) (L : Type) (P : prog L) (good : L -> Prop),
  (forall w l, good l -> forall q k, P w l <> ATest q k) ->
  (forall eager hs w l tb l' e, good l -> react cu eager P hs w l tb = Some (l', e) -> good l') ->
  forall e1 e2 (s : state L) n t m t',
  good_state good s ->
  steps cu e1 P n s t -> all_done P t -> steps cu e2 P m s t' -> all_done P t' -> t = t' /\ n = m.
Proof.
  intros cu L P good Hnt Hst e1 e2 s n t m t' Hg H1 Hd1 H2 Hd2.
  (* both are complete executions under the behaviour that buffers every standard send *)
  assert (Hmax : forall e, eager_le e (fun _ _ => true)) by (intros e w q _; reflexivity).
  eapply (schedule_independent Hnt Hst (eager := fun _ _ => true));
    eauto using steps_eager_mono, all_done_terminal.
Qed.
Print Assumptions C08_buffering_independent.

Theorem C08_rendezvous_complete_all_complete :
  forall (cu : list (list nat)) (L : Type) (P : prog L) (good : L -> Prop),
  (forall w l, good l -> forall q k, P w l <> ATest q k) ->
  (forall eager hs w l tb l' e, good l -> react cu eager P hs w l tb = Some (l', e) -> good l') ->
  forall (s : state L) n t,
  good_state good s ->
  steps cu (fun _ _ => false) P n s t -> all_done P t ->
  forall e m u, steps cu e P m s u ->
    m <= n /\ steps cu e P (n - m) u t /\ ~ deadlock cu P e u.
Proof.
  intros cu L P good Hnt Hst s n t Hg H1 Hd e m u H2.
  assert (L0 : eager_le (fun _ _ => false) e) by (intros w q H; discriminate).
  eapply (one_completes_all_complete Hnt Hst); eauto using steps_eager_mono, all_done_terminal.
Qed.
Print Assumptions C08_rendezvous_complete_all_complete.

(* (5) the executable checker that the harness runs on the event logs it replays accepts only sequences of
   [legal] events ([legal], in Proofs/MPIProofs.v: one rule per kind of action; the rules for Wait and Exit are
   stated with the model's own [recv_partner], [send_partner], [exit_cand], so this theorem is about the tests
   around them, and what the matching functions return is (7)) *)
Theorem C08_replay_sound :
  forall cu eg n log, replay cu eg n log = true -> valid_exec cu (eager_of eg) (init_hists n) log.
Proof. intros cu eg n log H. exact (replay_from_sound H). Qed.
Print Assumptions C08_replay_sound.

(* (6) tie to the confluence theorems: an accepted, Test-free log is a complete execution of the straight-line
   skeleton programs extracted from it (its per-rank projections) ... *)
Theorem C08_accepted_log_is_execution :
  forall cu eg n log,
  replay cu eg n log = true -> skeleton_ok log = true ->
  steps cu (eager_of eg) skel_prog (length log) (skel_init n log) (skel_final n log) /\
  all_done skel_prog (skel_final n log) /\
  hists_of (skel_final n log) = map (proj log) (seq 0 n).
Proof. exact accepted_log_is_execution. Qed.
Print Assumptions C08_accepted_log_is_execution.

(* ... hence EVERY schedule of that skeleton (under the logged buffering behaviour or any that buffers more)
   terminates within the same number of steps, never deadlocks and can only end in the logged final state *)
Theorem C08_skeleton_schedule_independent :
  forall cu eg n log,
  replay cu eg n log = true -> skeleton_ok log = true ->
  forall e, eager_le (eager_of eg) e ->
  forall m u, steps cu e skel_prog m (skel_init n log) u ->
    m <= length log /\ steps cu e skel_prog (length log - m) u (skel_final n log) /\
    ~ deadlock cu skel_prog e u /\
    (terminal cu e skel_prog u -> u = skel_final n log).
Proof. exact skeleton_schedule_independent. Qed.
Print Assumptions C08_skeleton_schedule_independent.

(* a log recorded with NO buffered standard send covers every buffering behaviour *)
Theorem C08_skeleton_deadlock_free_all_buffering :
  forall cu n log,
  replay cu [] n log = true -> skeleton_ok log = true ->
  forall e m u, steps cu e skel_prog m (skel_init n log) u ->
    m <= length log /\ ~ deadlock cu skel_prog e u /\ (terminal cu e skel_prog u -> u = skel_final n log).
Proof.
  intros cu n log Hr Hs e m u Hu.
  destruct (skeleton_schedule_independent Hr Hs (e:=e)) with (m:=m) (u:=u) as (H1 & _ & H3 & H4); auto.
  intros w q H. discriminate.
Qed.
Print Assumptions C08_skeleton_deadlock_free_all_buffering.

(* (7) every receive is matched exactly once: the partner of a receive is a send request of the named source on
   the named communicator/tag, addressed to the receiver and carrying the delivered payload, and no other
   receive of any rank is matched with that send (the communicator universe lists every member once) *)
Theorem C08_recv_matched_once :
  forall cu hs w q ws pq v,
  (forall c, NoDup (members cu c)) ->
  recv_partner cu hs w q = Some (ws, pq, v) ->
  (exists sync c src tag me,
      req_of (hist_of hs w) q = Some (ERecv c src tag) /\
      wrank cu c src = Some ws /\ lrank cu c w = Some me /\
      req_of (hist_of hs ws) pq = Some (ESend sync c me tag v)) /\
  (forall w' q' v', recv_partner cu hs w' q' = Some (ws, pq, v') -> w' = w /\ q' = q).
Proof. exact recv_matched_once. Qed.
Print Assumptions C08_recv_matched_once.

(* the two sides of the matching agree: a synchronous send waits exactly for the receive that takes its payload *)
Theorem C08_matching_symmetric :
  forall cu hs w q ws pq v,
  (forall c, NoDup (members cu c)) ->
  recv_partner cu hs w q = Some (ws, pq, v) -> send_partner cu hs ws pq = Some (w, q).
Proof. exact matching_symmetric. Qed.
Print Assumptions C08_matching_symmetric.

(* a [legal] event (by (5), every event of an accepted log): a completed receive delivers exactly its partner's
   payload, and a send completes only with the payload that was posted (monitor: buffer untouched until completion) *)
Theorem C08_wait_delivers_partner :
  forall cu eager hs w q ws pq v,
  legal cu eager hs w (EWait q (Some (ws, pq)) v) -> recv_partner cu hs w q = Some (ws, pq, v).
Proof. intros cu eager hs w q ws pq v H. inversion H; subst; auto. Qed.
Print Assumptions C08_wait_delivers_partner.

Theorem C08_buffer_untouched_until_complete :
  forall cu eager hs w q v,
  legal cu eager hs w (EWait q None v) ->
  exists sync c dst tag, req_of (hist_of hs w) q = Some (ESend sync c dst tag v).
Proof. intros cu eager hs w q v H. inversion H; subst; eauto. Qed.
Print Assumptions C08_buffer_untouched_until_complete.

(* non-vacuity: a two-rank exchange + barrier is accepted and satisfies the premises ... *)
Example C08_nonvacuous : replay ex_cu [] 2 ex_log = true /\ skeleton_ok ex_log = true.
Proof. exact ex_log_accepted. Qed.
Print Assumptions C08_nonvacuous.

(* ... and the premise "no Test result is branched on" is necessary: a program that polls once with Test has two
   complete executions ending in different states *)
Example C08_test_breaks_confluence :
  exists s0 t t',
    steps ex_cu (fun _ _ => false) test_prog 3 s0 t /\ terminal ex_cu (fun _ _ => false) test_prog t /\
    steps ex_cu (fun _ _ => false) test_prog 3 s0 t' /\ terminal ex_cu (fun _ _ => false) test_prog t' /\
    t <> t'.
Proof. exact test_breaks_confluence. Qed.
Print Assumptions C08_test_breaks_confluence.
