(* C13 — property theorems only, about the executable heap model Model/Heap.v.  Each is closed by [exact] of a lemma of
   Proofs/HeapProofs.v or derived in a few lines from the general lemmas there, and is followed by Print Assumptions.
   [wf h] (every bound array lives in an allocated buffer) holds for every heap reachable from the
   empty one (C13_wf_reachable), so it is not an assumption about the implementation. *)
From Coq Require Import ZArith List Bool Arith Lia.
From PySDC Require Import Model.Heap Proofs.HeapProofs.
Import ListNotations.

(* (1) value semantics: no operation other than __setitem__ (construction, copy construction,
   assignment, ufunc calls with or without out=, binary/unary operators, AUGMENTED ASSIGNMENT,
   slicing, component access, abs, .copy(), np.sum, del; on meshes, multi-component meshes,
   particles and fields; successful or raising) changes the cells of ANY existing object - operand,
   bystander, or the object a name is being rebound from *)
Theorem C13_ops_preserve_objects : forall h o v, is_setitem o = false ->
  wfv (length (bufs h)) v -> read_value (bufs (fst (exec h o))) v = read_value (bufs h) v.
Proof. exact ops_preserve_objects. Qed.
Print Assumptions C13_ops_preserve_objects.

Theorem C13_ops_preserve_others : forall h o n v, wf h -> is_setitem o = false -> n <> dst o ->
  lookup n (env h) = Some v ->
  lookup n (env (fst (exec h o))) = Some v /\ read_value (bufs (fst (exec h o))) v = read_value (bufs h) v.
Proof. exact ops_preserve_others. Qed.
Print Assumptions C13_ops_preserve_others.

(* lifted to sequences ([seq_preserves_object] in Proofs asks only that v itself lives in allocated buffers) *)
Theorem C13_value_semantics_seq : forall ops h n v, wf h ->
  (forall o, In o ops -> is_setitem o = false) -> (forall o, In o ops -> dst o <> n) ->
  lookup n (env h) = Some v ->
  lookup n (env (exec_seq h ops)) = Some v /\ read_value (bufs (exec_seq h ops)) v = read_value (bufs h) v.
Proof. exact (fun ops h n v W Hs Hd Hl => seq_preserves_object ops h n v (W n v Hl) Hs Hd Hl). Qed.
Print Assumptions C13_value_semantics_seq.

Theorem C13_wf_reachable : forall ops, wf (exec_seq empty_heap ops).
Proof. exact wf_reachable. Qed.
Print Assumptions C13_wf_reachable.

(* (2) augmented assignment rebinds, never writes in place (what `rhs = u0; rhs += ...` in the
   sweepers relies on): the object formerly bound to d keeps its cells, so every other name bound to it and every
   view of it is unaffected, and d is rebound to an array in a brand-new buffer *)
Theorem C13_iop_rebinds_never_writes : forall h d f y h' a, wf h ->
  exec h (OIop d f y) = (h', ROk) -> lookup d (env h) = Some (VArr a) ->
  read_arr (bufs h') a = read_arr (bufs h) a /\
  exists a', lookup d (env h') = Some (VArr a') /\ a_buf a' = length (bufs h) /\ a_oid a' = noid h /\
    a_idx a' = seq 0 (length (a_idx a')) /\ read_arr (bufs h') a' = nth (length (bufs h)) (bufs h') [].
Proof.
  intros h d f y h' a W H L. destruct (exec_iop_ok _ _ _ _ _ _ H L) as (py & _ & D).
  apply do_ufunc_ok in D. destruct D as (k & dt & s & cells & _ & ->). cbn [bufs env noid]. split.
  - apply read_arr_app. apply W in L. inversion L; auto.
  - eexists. rewrite lookup_bind_same. split; [reflexivity|].
    erewrite read_fresh, app_nth2, Nat.sub_diag by reflexivity || lia.
    unfold fresh_arr. cbn [a_buf a_oid a_idx]. rewrite seq_length. repeat split; lia.
Qed.
Print Assumptions C13_iop_rebinds_never_writes.

(* (3) results keep the data type: the result of a ufunc call has the class of its array arguments when these agree
   (plain ndarrays and python scalars do not count) *)
Theorem C13_ufunc_result_class : forall h d f args outs h' k, do_ufunc h d f args outs = (h', ROk) ->
  is_meshclass k = true ->
  (exists a, In (PVal (VArr a)) (args ++ outs) /\ a_kind a = k) ->
  (forall a, In (PVal (VArr a)) (args ++ outs) -> a_kind a = k \/ a_kind a = KNd) ->
  exists a', lookup d (env h') = Some (VArr a') /\ a_kind a' = k /\ a_buf a' = length (bufs h).
Proof.
  intros h d f args outs h' k H Hm [a0 [I0 K0]] Hall.
  apply do_ufunc_ok in H. destruct H as (k' & dt & s & cells & U & ->).
  apply ufunc_value_inr in U. destruct U as [U _].
  rewrite (resolve_kind_uniform _ k) in U; auto.
  - inversion U; subst. cbn [env bufs]. eexists. rewrite lookup_bind_same. split; [reflexivity|]. simpl. split; auto; lia.
  - subst k. apply kinds_of_args_in. auto.
  - intros k1 I1. apply in_kinds_of_args in I1. destruct I1 as [->|[a [I K]]]; auto.
    subst k1. apply Hall. auto.
Qed.
Print Assumptions C13_ufunc_result_class.

Theorem C13_binop_same_class : forall h d f x y ax ay h', lookup x (env h) = Some (VArr ax) -> lookup y (env h) = Some (VArr ay) ->
  arity f = 2 -> a_kind ax = a_kind ay -> is_meshclass (a_kind ax) = true ->
  exec h (OBin d f (ON x) (ON y)) = (h', ROk) ->
  exists a', lookup d (env h') = Some (VArr a') /\ a_kind a' = a_kind ax /\ a_buf a' = length (bufs h).
Proof.
  intros. rewrite (exec_bin_arrays h d f x y ax ay) in H4; auto.
  eapply C13_ufunc_result_class; eauto.
  - exists ax. simpl. auto.
  - simpl. intros a [E|[E|[]]]; inversion E; subst; auto.
Qed.
Print Assumptions C13_binop_same_class.

Theorem C13_scalar_op_same_class : forall h d f x t c ax h', lookup x (env h) = Some (VArr ax) ->
  arity f = 2 -> is_meshclass (a_kind ax) = true ->
  (exec h (OBin d f (ON x) (OS t c)) = (h', ROk) \/ exec h (OBin d f (OS t c) (ON x)) = (h', ROk)) ->
  exists a', lookup d (env h') = Some (VArr a') /\ a_kind a' = a_kind ax /\ a_buf a' = length (bufs h).
Proof.
  intros. destruct (exec_bin_scalar h d f x t c ax H H0) as [E1 E2]. rewrite E1, E2 in H2.
  destruct H2 as [H2|H2]; (eapply C13_ufunc_result_class; eauto;
    [exists ax; simpl; auto | simpl; intros a [E|[E|[]]]; inversion E; subst; auto]).
Qed.
Print Assumptions C13_scalar_op_same_class.

(* augmented assignment with a scalar / a plain array / an array of the same class keeps the class *)
Theorem C13_iop_keeps_class : forall h d f y a py h', lookup d (env h) = Some (VArr a) -> eval_operand h y = Some py ->
  (match py with PVal (VArr b) => a_kind b = a_kind a \/ a_kind b = KNd | PScal _ _ | PLit _ _ _ => True | _ => False end) ->
  arity f = 2 -> is_meshclass (a_kind a) = true ->
  exec h (OIop d f y) = (h', ROk) ->
  exists a', lookup d (env h') = Some (VArr a') /\ a_kind a' = a_kind a /\ a_buf a' = length (bufs h).
Proof.
  intros h d f y a py h' L E P _ Hm H. destruct (exec_iop_ok _ _ _ _ _ _ H L) as (py' & E' & D).
  rewrite E in E'. injection E' as <-. eapply C13_ufunc_result_class; eauto.
  - exists a. simpl. auto.
  - simpl. intros b [X|[X|[X|[]]]]; inversion X; subst; auto.
Qed.
Print Assumptions C13_iop_keeps_class.

(* (4) __setitem__, the only writer, writes only its window; a raising __setitem__ writes nothing *)
Theorem C13_setitem_frame : forall h d s src h' r, exec h (OSet d s src) = (h', r) ->
  env h' = env h /\ noid h' = noid h /\ length (bufs h') = length (bufs h) /\
  (forall b, length (nth b (bufs h') []) = length (nth b (bufs h) [])) /\
  (r <> ROk -> h' = h) /\
  forall a reg, lookup d (env h) = Some (VArr a) -> select a s = inr reg ->
    forall b i, (b <> a_buf a \/ ~ In i (region_idx reg)) ->
      nth i (nth b (bufs h') []) c0 = nth i (nth b (bufs h) []) c0.
Proof.
  intros h d s src h' r H. pose proof (exec_setitem h d s src) as X. rewrite H in X.
  inversion X as [e|a reg cells L S Len]; subst.
  - repeat split; auto.
  - cbn [env noid bufs]. repeat split; auto using write_buf_length, write_buf_buffer_length.
    + intros C. exfalso. apply C. auto.
    + intros a' reg' L' S' b i Hout. rewrite L in L'. inversion L'; subst a'. rewrite S in S'. inversion S'; subst reg'.
      apply write_buf_cell_outside. auto.
Qed.
Print Assumptions C13_setitem_frame.

(* any array none of whose positions is written reads the same afterwards *)
Theorem C13_setitem_preserves_disjoint : forall h d s src h' r a reg, exec h (OSet d s src) = (h', r) ->
  lookup d (env h) = Some (VArr a) -> select a s = inr reg ->
  forall a2, (a_buf a2 <> a_buf a \/ forall i, In i (a_idx a2) -> ~ In i (region_idx reg)) ->
  read_arr (bufs h') a2 = read_arr (bufs h) a2.
Proof.
  intros h d s src h' r a reg H L S a2 Hd.
  destruct (C13_setitem_frame _ _ _ _ _ _ H) as (_ & _ & _ & _ & _ & Hc).
  unfold read_arr, read_at. apply map_ext_in. intros i Hi. apply (Hc a reg L S).
  destruct Hd as [Hd|Hd]; auto.
Qed.
Print Assumptions C13_setitem_preserves_disjoint.

(* (5) copy construction yields independent storage (mesh classes, particles, fields) *)
Theorem C13_copy_independent : forall h d ck s h1 v, wf h -> exec h (OCopy d ck s) = (h1, ROk) -> lookup s (env h) = Some v ->
  exists v', lookup d (env h1) = Some v' /\
    read_value (bufs h1) v' = read_value (bufs h) v /\
    freshv (length (bufs h)) v' /\ NoDup (map a_buf (leaves v')) /\
    (forall w, wfv (length (bufs h)) w -> read_value (bufs h1) w = read_value (bufs h) w) /\
    forall t sl src h2 r a, exec h1 (OSet t sl src) = (h2, r) -> lookup t (env h1) = Some (VArr a) ->
      (a_buf a < length (bufs h) -> read_value (bufs h2) v' = read_value (bufs h1) v') /\
      (length (bufs h) <= a_buf a -> forall w, wfv (length (bufs h)) w -> read_value (bufs h2) w = read_value (bufs h1) w).
Proof. exact copy_independent. Qed.
Print Assumptions C13_copy_independent.

(* (6) components of multi-component meshes are views of the one buffer: in EVERY later buffer state
   the view reads as the parent's component (a write through either is seen through the other) *)
Theorem C13_component_views_alias : forall h c p i h1 ap, exec h (OComp c p i) = (h1, ROk) -> lookup p (env h) = Some (VArr ap) ->
  exists ac, lookup c (env h1) = Some (VArr ac) /\ bufs h1 = bufs h /\
    a_kind ac = KMesh /\ a_dt ac = a_dt ap /\ a_buf ac = a_buf ap /\ a_shape ac = tl (a_shape ap) /\
    a_idx ac = sub (a_idx ap) (i * size (a_shape ac)) (size (a_shape ac)) /\ i < 2 /\ size (a_shape ap) = 2 * size (a_shape ac) /\
    forall bs, read_arr bs ac = firstn (size (a_shape ac)) (skipn (i * size (a_shape ac)) (read_arr bs ap)).
Proof. exact component_views_alias. Qed.
Print Assumptions C13_component_views_alias.

(* ... hence after ANY later operations that do not rebind the two names (writes through the view, the
   parent, aliases, slices, other components, ... included) the view still shows the parent's component *)
Theorem C13_component_view_tracks_parent : forall ops h c p i h1 ap ac,
  exec h (OComp c p i) = (h1, ROk) -> lookup p (env h) = Some (VArr ap) -> c <> p ->
  lookup c (env h1) = Some (VArr ac) ->
  (forall o, In o ops -> is_setitem o = true \/ (dst o <> c /\ dst o <> p)) ->
  let h2 := exec_seq h1 ops in
  lookup c (env h2) = Some (VArr ac) /\ lookup p (env h2) = Some (VArr ap) /\
  read_arr (bufs h2) ac = firstn (size (a_shape ac)) (skipn (i * size (a_shape ac)) (read_arr (bufs h2) ap)).
Proof.
  intros ops h c p i h1 ap ac H L N Lc Hops h2.
  pose proof (component_view_reads _ _ _ _ _ _ _ H L Lc) as V. subst h2.
  rewrite !exec_seq_keeps_binding; try (intros o I; destruct (Hops o I) as [|[]]; auto).
  repeat split; auto.
  rewrite <- L, (exec_fst _ _ _ _ H). apply exec_keeps_binding. auto.
Qed.
Print Assumptions C13_component_view_tracks_parent.

Theorem C13_wfs_reachable : forall ops, wfs (exec_seq empty_heap ops).
Proof. exact wfs_reachable. Qed.
Print Assumptions C13_wfs_reachable.

(* a successful d[:] = src is read back through d (on every reachable heap: [wfs]; [setitem_reads_back] in Proofs
   asks only that the window of d is in bounds) *)
Theorem C13_setitem_reads_back : forall h d src h' a cells, wfs h -> exec h (OSet d SAll src) = (h', ROk) ->
  lookup d (env h) = Some (VArr a) ->
  (exists ps u, eval_operand h src = Some ps /\ as_ufarg (bufs h) ps = Some u /\
     assign_cells (a_dt a) (a_shape a) (u_cplx u) (u_shape u) (u_cells u) = Some cells) ->
  read_arr (bufs h') a = cells.
Proof.
  intros h d src h' a cells W H L (ps & u & E1 & E2 & E3).
  exact (setitem_reads_back h d src h' a ps u cells (wfs_arr h d a W L) H L E1 E2 E3).
Qed.
Print Assumptions C13_setitem_reads_back.

(* a write through a component view is seen in the parent, and vice versa *)
Theorem C13_component_write_seen_in_parent : forall h c p i h1 ap ac src h2 cells, wfs h ->
  exec h (OComp c p i) = (h1, ROk) -> lookup p (env h) = Some (VArr ap) -> c <> p ->
  lookup c (env h1) = Some (VArr ac) ->
  exec h1 (OSet c SAll src) = (h2, ROk) ->
  (exists ps u, eval_operand h1 src = Some ps /\ as_ufarg (bufs h1) ps = Some u /\
     assign_cells (a_dt ac) (a_shape ac) (u_cplx u) (u_shape u) (u_cells u) = Some cells) ->
  firstn (size (a_shape ac)) (skipn (i * size (a_shape ac)) (read_arr (bufs h2) ap)) = cells.
Proof.
  intros h c p i h1 ap ac src h2 cells W H L N Lc H2 E.
  rewrite <- (component_view_reads _ _ _ _ _ _ _ H L Lc).
  apply (C13_setitem_reads_back h1 c src); auto. rewrite (exec_fst _ _ _ _ H). apply exec_wfs, W.
Qed.
Print Assumptions C13_component_write_seen_in_parent.

Theorem C13_parent_write_seen_in_component : forall h c p i h1 ap ac src h2 cells, wfs h ->
  exec h (OComp c p i) = (h1, ROk) -> lookup p (env h) = Some (VArr ap) -> c <> p ->
  lookup c (env h1) = Some (VArr ac) ->
  exec h1 (OSet p SAll src) = (h2, ROk) ->
  (exists ps u, eval_operand h1 src = Some ps /\ as_ufarg (bufs h1) ps = Some u /\
     assign_cells (a_dt ap) (a_shape ap) (u_cplx u) (u_shape u) (u_cells u) = Some cells) ->
  read_arr (bufs h2) ac = firstn (size (a_shape ac)) (skipn (i * size (a_shape ac)) cells).
Proof.
  intros h c p i h1 ap ac src h2 cells W H L N Lc H2 E.
  rewrite (component_view_reads _ _ _ _ _ _ _ H L Lc). do 2 f_equal.
  assert (Lp : lookup p (env h1) = Some (VArr ap)).
  { rewrite <- L, (exec_fst _ _ _ _ H). apply exec_keeps_binding. auto. }
  apply (C13_setitem_reads_back h1 p src); auto. rewrite (exec_fst _ _ _ _ H). apply exec_wfs, W.
Qed.
Print Assumptions C13_parent_write_seen_in_component.

(* (6b) general basic-indexing views  d = s.transpose(perm)[start:stop:nowrite, ...]  (strided, reversed, sub-block,
   transposed): same class and buffer; in EVERY buffer state the view reads as the parent's cells gathered at fixed,
   in-range, pairwise distinct positions; and a write through a COMPONENT of such a view of a multi-component mesh
   lands in the mesh itself *)
Theorem C13_strided_views_alias : forall h d s perm sl h1 ap, exec h (OView d s perm sl) = (h1, ROk) -> lookup s (env h) = Some (VArr ap) ->
  exists av pos, lookup d (env h1) = Some (VArr av) /\ bufs h1 = bufs h /\
    a_kind av = a_kind ap /\ a_dt av = a_dt ap /\ a_buf av = a_buf ap /\ a_shape av = map (fun x => snd x) sl /\
    a_idx av = map (fun p => nth p (a_idx ap) 0) pos /\ Forall (fun p => p < length (a_idx ap)) pos /\
    NoDup (a_idx av) /\ length (a_idx av) = size (a_shape av) /\
    forall bs, read_arr bs av = map (fun p => nth p (read_arr bs ap) c0) pos.
Proof.
  intros h d s perm sl h1 ap H L. unfold exec in H. rewrite L in H.
  destruct (view_of ap perm sl) as [[nsh idx]|] eqn:V; [|discriminate H].
  destruct (view_of_spec _ _ _ _ _ V) as (pos & E & F & ND & Len & Sh).
  injection H as <-. cbn [env bufs].
  exists (mkArr (noid h) (a_kind ap) (a_dt ap) nsh (a_buf ap) idx), pos.
  rewrite lookup_bind_same. cbn [a_kind a_dt a_buf a_shape a_idx].
  repeat split; auto; try apply app_nil_r.
  intros bs. unfold read_arr. cbn [a_buf a_idx]. rewrite E. apply read_at_gather. auto.
Qed.
Print Assumptions C13_strided_views_alias.

Theorem C13_strided_component_write_seen_in_base : forall h v p perm sl h1 ap av pos c i h2 ac src h3 cells, wfs h ->
  exec h (OView v p perm sl) = (h1, ROk) -> lookup p (env h) = Some (VArr ap) -> lookup v (env h1) = Some (VArr av) ->
  (forall bs, read_arr bs av = map (fun q => nth q (read_arr bs ap) c0) pos) ->
  exec h1 (OComp c v i) = (h2, ROk) -> c <> v -> lookup c (env h2) = Some (VArr ac) ->
  exec h2 (OSet c SAll src) = (h3, ROk) ->
  (exists ps u, eval_operand h2 src = Some ps /\ as_ufarg (bufs h2) ps = Some u /\
     assign_cells (a_dt ac) (a_shape ac) (u_cplx u) (u_shape u) (u_cells u) = Some cells) ->
  firstn (size (a_shape ac)) (skipn (i * size (a_shape ac)) (map (fun q => nth q (read_arr (bufs h3) ap) c0) pos)) = cells.
Proof.
  intros h v p perm sl h1 ap av pos c i h2 ac src h3 cells W H L Lv G HC N Lc HS E.
  rewrite <- G. refine (C13_component_write_seen_in_parent h1 c v i h2 av ac src h3 cells _ HC Lv N Lc HS E).
  rewrite (exec_fst _ _ _ _ H). apply exec_wfs, W.
Qed.
Print Assumptions C13_strided_component_write_seen_in_base.

Example C13_nonvacuous_strided : exists h ap h1, wfs h /\ lookup 0 (env h) = Some (VArr ap) /\
  exec h (OView 1 0 [0; 2; 1] [(0%Z, 1%Z, 2); (2%Z, (-2)%Z, 2); (0%Z, 1%Z, 2)]) = (h1, ROk).
Proof. exact strided_demo_hypotheses. Qed.
Print Assumptions C13_nonvacuous_strided.

(* (7) abs() is the maximum norm, and that is a norm (exact cells; real: Z, complex: squared modulus
   with sqrt S <= sqrt A + sqrt B written root-free as [sqrt_le_sum]) *)
Theorem C13_abs_is_maxnorm : forall h d s h' a, exec h (OAbs d s) = (h', ROk) -> lookup s (env h) = Some (VArr a) ->
  lookup d (env h') =
    Some (if is_cplx (a_dt a) then VNum NAbsSq (maxsq (read_arr (bufs h) a), 0%Z)
          else VNum NPyFloat (maxabs (map fst (read_arr (bufs h) a)), 0%Z))
  /\ bufs h' = bufs h.
Proof.
  intros h d s h' a H L. unfold exec in H. rewrite L in H.
  destruct (is_meshclass (a_kind a)); [|discriminate H].
  destruct (read_arr (bufs h) a) eqn:R; [discriminate H|].
  destruct (is_cplx (a_dt a)); injection H as <-; cbn [env bufs]; rewrite lookup_bind_same, app_nil_r; auto.
Qed.
Print Assumptions C13_abs_is_maxnorm.

Theorem C13_maxnorm_nonneg : forall l, (0 <= maxabs l)%Z.
Proof. intros l. rewrite maxabs_maxof. apply maxof_nonneg. Qed.
Print Assumptions C13_maxnorm_nonneg.
Theorem C13_maxnorm_is_max : forall l, (forall x, In x l -> (Z.abs x <= maxabs l)%Z) /\
                                        (l <> [] -> exists x, In x l /\ maxabs l = Z.abs x).
Proof. intro l. rewrite maxabs_maxof. split; [apply maxof_ge | apply maxof_attained, Z.abs_nonneg]. Qed.
Print Assumptions C13_maxnorm_is_max.
Theorem C13_maxnorm_zero_iff : forall l, maxabs l = 0%Z <-> Forall (fun x => x = 0%Z) l.
Proof. intros l. rewrite maxabs_maxof. apply (maxof_zero Z.abs Z.abs_nonneg _ Z.abs_0_iff). Qed.
Print Assumptions C13_maxnorm_zero_iff.
Theorem C13_maxnorm_homogeneous : forall c l, maxabs (map (Z.mul c) l) = (Z.abs c * maxabs l)%Z.
Proof. intros c l. rewrite !maxabs_maxof. apply maxof_scale; [apply Z.abs_nonneg | apply Z.abs_mul]. Qed.
Print Assumptions C13_maxnorm_homogeneous.
Theorem C13_maxnorm_triangle : forall l1 l2, (maxabs (zip_add l1 l2) <= maxabs l1 + maxabs l2)%Z.
Proof.
  unfold zip_add. induction l1 as [|x l1 IH]; destruct l2 as [|y l2];
    try (apply Z.add_nonneg_nonneg; apply (maxof_nonneg Z.abs)).
  apply Z.max_lub.
  - etransitivity; [apply Z.abs_triangle|]. apply Z.add_le_mono; apply Z.le_max_l.
  - etransitivity; [apply IH|]. apply Z.add_le_mono; apply Z.le_max_r.
Qed.
Print Assumptions C13_maxnorm_triangle.
Theorem C13_complex_maxnorm_zero_iff : forall l, maxsq l = 0%Z <-> Forall (fun c => c = (0, 0)%Z) l.
Proof. intros l. rewrite maxsq_maxof. apply (maxof_zero normsq normsq_nonneg _ normsq_zero). Qed.
Print Assumptions C13_complex_maxnorm_zero_iff.
Theorem C13_complex_maxnorm_homogeneous : forall c l, maxsq (map (cmul c) l) = (normsq c * maxsq l)%Z.
Proof. intros c l. rewrite !maxsq_maxof. apply maxof_scale; [apply normsq_nonneg | apply normsq_mul]. Qed.
Print Assumptions C13_complex_maxnorm_homogeneous.
Theorem C13_complex_maxnorm_triangle : forall l1 l2, sqrt_le_sum (maxsq (zip_cadd l1 l2)) (maxsq l1) (maxsq l2).
Proof.
  unfold zip_cadd. induction l1 as [|x l1 IH]; destruct l2 as [|y l2];
    try (left; apply Z.add_nonneg_nonneg; apply (maxof_nonneg normsq)).
  specialize (IH l2). simpl. set (M := maxsq (map _ (combine l1 l2))) in *.
  assert (0 <= maxsq l1 /\ 0 <= maxsq l2 /\ 0 <= M)%Z as (? & ? & ?) by (repeat split; apply (maxof_nonneg normsq)).
  pose proof (normsq_nonneg x). pose proof (normsq_nonneg y).
  destruct (Z.max_spec (normsq (cadd x y)) M) as [[_ E]|[_ E]]; rewrite E.
  - eapply sqrt_le_sum_mono; [| | |apply IH]; lia.
  - apply cell_triangle; lia.
Qed.
Print Assumptions C13_complex_maxnorm_triangle.

(* (8) refuted in the faithful model (and on the real classes, see the correspondence): results of
   PARTICLE arithmetic do not own all their storage - q and m are shared with the left operand, because
   particles.__add__/__sub__/__rmul__ end with `p.m = self.m; p.q = self.q` (the copy constructor copies them) *)
Theorem C13_particles_result_independent_refuted :
  exists ops a, lookup 3 (env (exec_seq empty_heap ops)) = Some (VArr a) /\
    read_arr (bufs (exec_seq empty_heap ops)) a = [(9, 0); (9, 0)]%Z /\
    read_arr (bufs (exec_seq empty_heap (firstn 3 ops))) a = [(4, 0); (4, 0)]%Z.
Proof.
  (* p = particles(...); r = p + p; r.m[:] = 9; then look at p.m *)
  exists [ONewPart 0 [2] 1 2 3 4; OBin 1 UAdd (ON 0) (ON 0); OComp 2 1 3; OSet 2 SAll (OS SFloat (9, 0)%Z); OComp 3 0 3].
  eexists. vm_compute. repeat split.
Qed.
Print Assumptions C13_particles_result_independent_refuted.

(* non-vacuity: concrete reachable heaps satisfying the hypotheses of (2), (5), (6) *)
Example C13_nonvacuous_iop : exists h a h', wf h /\ lookup 1 (env h) = Some (VArr a) /\
  exec h (OIop 1 UAdd (OS SInt (1, 0)%Z)) = (h', ROk).
Proof. exact demo_iop_hypotheses. Qed.
Print Assumptions C13_nonvacuous_iop.
Example C13_nonvacuous_component : exists h ap h1, lookup 0 (env h) = Some (VArr ap) /\ exec h (OComp 2 0 1) = (h1, ROk).
Proof. exact demo_component_hypotheses. Qed.
Print Assumptions C13_nonvacuous_component.
Example C13_nonvacuous_copy : exists h v h1, wf h /\ lookup 0 (env h) = Some v /\ exec h (OCopy 3 (CArr KImex) 0) = (h1, ROk).
Proof. exact demo_copy_hypotheses. Qed.
Print Assumptions C13_nonvacuous_copy.
