(* C14 — statistics are a faithful, uniquely keyed record of the run: property theorems.
   Model: Model/Stats.v (Entry, dictionaries, filter_stats with both phases of the `recomputed` pruning,
   sort_stats, get_list_of_types, Hooks.add_to_stats/increment_stats, Controller.return_stats,
   DefaultHooks.post_step, BasicRestartingNonMPI.prepare_next_block).  Proofs: Proofs/StatsProofs.v. *)
From Coq Require Import ZArith QArith List Bool String Lia Permutation Sorted.
From PySDC Require Import Base.Dyadic Model.Stats Proofs.StatsProofs.
Import ListNotations.
Open Scope Z_scope.

(* filtering returns exactly the entries matching the given keys (both inclusions), in dictionary order; the last
   conjunct is the readable form of the second, and `truthy` plays no role as long as `recomputed` is not given *)
Theorem C14_filter_exact {V} (truthy : V -> bool) (stats : dict V) kw :
  exists r, filter_stats truthy stats kw None = Some r /\
    r = filter (fun kv => matches kw (fst kv)) stats /\
    forall k v, In (k, v) r <-> In (k, v) stats /\ matchesP kw k.
Proof.
  exists (filter_plain kw stats). split; [reflexivity|]. split; [reflexivity|]. intros k v. apply filter_exact.
Qed.
Print Assumptions C14_filter_exact.

(* sorting: ascending in the chosen key, a permutation of the (key, value) pairs, stable *)
Theorem C14_sort_sorted_perm {V} (d : dict V) f l :
  sort_stats d f = Some l ->
  Permutation l (map (fun kv => (getattr f (fst kv), snd kv)) d) /\
  StronglySorted (fun x y => item_leP (fst x) (fst y)) l /\
  forall a, filter (fun y => item_eqb (fst y) a) l = filter (fun y => item_eqb (fst y) a) (map (fun kv => (getattr f (fst kv), snd kv)) d).
Proof. exact (sort_sorted_perm d f l). Qed.
Print Assumptions C14_sort_sorted_perm.

(* what filter_stats(recomputed=...) keeps, on the dictionaries hooks produce: per (time, type) group of the
   matching entries those with the largest restart count, minus everything at a marked time *)
Theorem C14_filter_recomputed_spec {V} (truthy : V -> bool) (stats : dict V) kw b :
  regular stats ->
  exists r, filter_stats truthy stats kw (Some b) = Some r /\
    (exists P, r = filter P stats) /\
    forall kv, In kv r <->
      In kv stats /\ matchesP kw (fst kv) /\ ~ dominated (filter_plain kw stats) (fst kv) /\
      (kw_is_recomputed kw = false -> ~ marked truthy stats (e_time (fst kv))).
Proof. exact (filter_stats_regular_spec truthy stats kw b). Qed.
Print Assumptions C14_filter_recomputed_spec.

(* filtering out recomputed values leaves exactly the records of accepted steps — under the three stated
   conditions on the restart counts (accepted = largest of its group, superseded outnumbered or marked,
   accepted not marked) *)
Theorem C14_filter_recomputed_keeps_accepted {V} (truthy : V -> bool) (acc : entry -> bool) (d : dict V) :
  regular d ->
  (forall kv kv', In kv d -> In kv' d -> e_type (fst kv) <> Some recomputed_tag -> acc (fst kv) = true ->
     e_time (fst kv') = e_time (fst kv) -> e_type (fst kv') = e_type (fst kv) -> nr (fst kv') <= nr (fst kv)) ->
  (forall kv, In kv d -> e_type (fst kv) <> Some recomputed_tag -> acc (fst kv) = false ->
     (exists kv', In kv' d /\ acc (fst kv') = true /\ e_time (fst kv') = e_time (fst kv) /\ e_type (fst kv') = e_type (fst kv) /\
                  nr (fst kv) < nr (fst kv')) \/ marked truthy d (e_time (fst kv))) ->
  (forall kv, In kv d -> e_type (fst kv) <> Some recomputed_tag -> acc (fst kv) = true -> ~ marked truthy d (e_time (fst kv))) ->
  forall s t b, s <> recomputed_tag ->
  exists r, filter_stats truthy d (kw_tt (Some s) t) (Some b) = Some r /\
    (exists P, r = filter P d) /\
    forall kv, In kv r <-> In kv d /\ matchesP (kw_tt (Some s) t) (fst kv) /\ acc (fst kv) = true.
Proof. exact (filter_recomputed_keeps_accepted truthy acc d). Qed.
Print Assumptions C14_filter_recomputed_keeps_accepted.

(* the executable form of those conditions is sound *)
Theorem C14_check_accepted_sound acc d :
  check_accepted acc d = true ->
  forall s t b, s <> recomputed_tag ->
  exists r, filter_stats ztruthy d (kw_tt (Some s) t) (Some b) = Some r /\
    (exists P, r = filter P d) /\
    forall kv, In kv r <-> In kv d /\ matchesP (kw_tt (Some s) t) (fst kv) /\ In (fst kv) acc.
Proof. exact (check_accepted_sound acc d). Qed.
Print Assumptions C14_check_accepted_sound.

(* the economical evaluation of the same conditions, which is what the check evaluates on the statistics of real runs *)
Theorem C14_check_accepted_fast_sound acc d :
  check_accepted_fast acc d = true ->
  forall s t b, s <> recomputed_tag ->
  exists r, filter_stats ztruthy d (kw_tt (Some s) t) (Some b) = Some r /\
    (exists P, r = filter P d) /\
    forall kv, In kv r <-> In kv d /\ matchesP (kw_tt (Some s) t) (fst kv) /\ In (fst kv) acc.
Proof. intro H. apply check_accepted_sound, check_accepted_fast_sound, H. Qed.
Print Assumptions C14_check_accepted_fast_sound.

(* ... and the conditions are needed: with the restart counts the pinned BasicRestartingNonMPI produces
   (1/3/2 instead of 3/3/0) an accepted step is dropped (3 'niter' records for 4 accepted steps) *)
Theorem C14_filter_recomputed_drops_accepted_refuted :
  let svs := history (1, 3, 2) in
  let stats := h_stats (default_run svs) in
  let k := niter_key (sv 0 3 2 false 1) in
  In k (accepted_keys svs) /\ In (k, 3) stats /\
  exists r, filter_stats ztruthy stats kw_niter (Some false) = Some r /\ ~ In k (keys r) /\
            List.length r = 3%nat /\ List.length (filter (fun s => negb (sv_restart s)) svs) = 4%nat.
Proof.
  cbv zeta. split; [apply memb_spec; vm_compute; reflexivity|].
  split; [apply dict_get_in; [apply default_run_wf|vm_compute; reflexivity]|].
  eexists. split; [vm_compute; reflexivity|].
  split; [apply dict_get_none; vm_compute; reflexivity|split; reflexivity].
Qed.
Print Assumptions C14_filter_recomputed_drops_accepted_refuted.

(* cause: the in-place, one-call-per-step counter update is not the snapshot update: three steps, the last two
   restart after two restarts each -> the source leaves 1/3/2 where every restarted step should carry 3 and the
   new last step 0 (this is the history of the reproduced run) *)
Theorem C14_prepare_seq_aliasing_refuted :
  exists flags cnt, prepare_seq flags cnt <> prepare_snapshot flags cnt /\
                    prepare_seq flags cnt = [1; 3; 2] /\ prepare_snapshot flags cnt = [3; 3; 0].
Proof. exists [false; true; true], [2; 2; 2]. vm_compute. repeat split; congruence. Qed.
Print Assumptions C14_prepare_seq_aliasing_refuted.

Theorem C14_prepare_snapshot_spec flags cnt s :
  (s < List.length flags)%nat ->
  nth s (prepare_snapshot flags cnt) 0 =
  if (s + restart_from flags <? List.length flags)%nat
  then (if nth (s + restart_from flags) flags false then nth (s + restart_from flags) cnt 0 + 1 else 0) else 0.
Proof.
  intro H. unfold prepare_snapshot.
  set (f := fun s0 : nat => _).
  rewrite (nth_indep _ 0 (f 0%nat)) by (rewrite map_length, seq_length; exact H).
  rewrite map_nth, seq_nth by exact H. reflexivity.
Qed.
Print Assumptions C14_prepare_snapshot_spec.

(* keys: equal keys force equal slot, start time, iteration, sweep and restart count; strictly increasing
   start times give pairwise different keys *)
Theorem C14_key_injective s s' : niter_key s = niter_key s' ->
  sv_slot s = sv_slot s' /\ sv_time s = sv_time s' /\ sv_iter s = sv_iter s' /\ sv_sweep s = sv_sweep s' /\ sv_nr s = sv_nr s'.
Proof. exact (key_injective s s'). Qed.
Print Assumptions C14_key_injective.

Theorem C14_increasing_times_nodup svs :
  StronglySorted (fun a b => sv_time a < sv_time b) svs -> NoDup (map niter_key svs).
Proof.
  induction 1 as [|s svs _ IH Hs]; simpl; constructor; [|exact IH].
  intro Hin. apply in_map_iff in Hin. destruct Hin as (s' & E & Hs').
  apply key_injective in E. rewrite Forall_forall in Hs. specialize (Hs _ Hs'). lia.
Qed.
Print Assumptions C14_increasing_times_nodup.

(* DefaultHooks.post_step: exactly one 'niter' record per step, under its key, holding its iteration count *)
Theorem C14_one_record_per_step svs :
  NoDup (map niter_key svs) ->
  let stats := h_stats (default_run svs) in
  wf stats /\
  Permutation (keys (filter_plain (kw_type (Some "niter"%string)) stats)) (map niter_key svs) /\
  forall s, In s svs -> In (niter_key s, sv_iter s) stats.
Proof. exact (one_record_per_step svs). Qed.
Print Assumptions C14_one_record_per_step.

(* add_to_stats: the key carries the restart count of the latest refresh (last write wins) *)
Theorem C14_add_to_stats_key {V} k (v : V) h r k' :
  dict_get k' (h_stats (add_to_stats k v (hook_refresh (Some r) h))) =
  if entry_eqb (with_nr k r) k' then Some v else dict_get k' (h_stats h).
Proof. exact (add_to_stats_get k v (hook_refresh (Some r) h) k'). Qed.
Print Assumptions C14_add_to_stats_key.

(* without refresh (LogWork.post_step) the key carries the counter left by the previous callback *)
Theorem C14_add_to_stats_stale {V} k (v : V) h :
  dict_get (with_nr k (h_nr h)) (h_stats (add_to_stats k v h)) = Some v.
Proof. rewrite add_to_stats_get, entry_eqb_refl. reflexivity. Qed.
Print Assumptions C14_add_to_stats_stale.

(* Controller.return_stats: the last hook holding a key provides the value; keys of other hooks survive *)
Theorem C14_return_stats_last_wins {V} (pre post : list (hook V)) h k v :
  Forall (fun h => wf (h_stats h)) (pre ++ h :: post) ->
  dict_get k (h_stats h) = Some v ->
  (forall h', In h' post -> dict_get k (h_stats h') = None) ->
  dict_get k (return_stats (pre ++ h :: post)) = Some v.
Proof.
  intros Hwf Hk Hpost. unfold return_stats. rewrite return_stats_fold, fold_left_app by exact Hwf. simpl. rewrite Hk.
  clear Hwf. induction post as [|p ps IH]; simpl; [reflexivity|].
  rewrite (Hpost p (or_introl eq_refl)). apply IH. intros h' Hin. apply Hpost. right. exact Hin.
Qed.
Print Assumptions C14_return_stats_last_wins.

Theorem C14_get_list_of_types_spec {V} (d : dict V) :
  NoDup (get_list_of_types d) /\
  forall ty, In ty (get_list_of_types d) <-> exists kv, In kv d /\ e_type (fst kv) = ty.
Proof.
  destruct (fold_append_new (oeqb_spec String.eqb_eq) (fun kv : entry * V => e_type (fst kv)) d []) as (N & I & _).
  split; [exact (N (NoDup_nil _))|]. intro ty. unfold get_list_of_types. rewrite I, in_map_iff. simpl.
  split; [intros [[]|(kv & H)]|intros (kv & H); right]; exists kv; tauto.
Qed.
Print Assumptions C14_get_list_of_types_spec.

(* the integer image of float times used by the model is order-exact (equality: StatsProofs.tz_eq) *)
Theorem C14_tz_order m1 e1 m2 e2 : -1074 <= e1 -> -1074 <= e2 ->
  (tz m1 e1 <= tz m2 e2 <-> (D2Q (Dy m1 e1) <= D2Q (Dy m2 e2))%Q).
Proof. exact (tz_order m1 e1 m2 e2). Qed.
Print Assumptions C14_tz_order.

(* Controller.add_hook: every requested hook class ends up registered exactly once (exact-class membership),
   independently of subclasses already present *)
Theorem C14_add_hooks_spec requests hooks :
  NoDup hooks ->
  NoDup (add_hooks requests hooks) /\
  (forall c, In c (add_hooks requests hooks) <-> In c hooks \/ In c requests) /\
  exists tail, add_hooks requests hooks = hooks ++ tail.
Proof.
  intro H. destruct (fold_append_new Z.eqb_eq (fun c => c) requests hooks) as (N & I & T).
  rewrite map_id in I. split; [exact (N H)|]. split; [exact I|exact T].
Qed.
Print Assumptions C14_add_hooks_spec.
