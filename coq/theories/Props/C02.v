(* C02 — property theorems only (statements closed by [exact]; the Print Assumptions of a section's theorems follow the
   section, since a section variable cannot be discharged before).
   K: any commutative ring; X: any component index set; feval, solve: arbitrary (nonlinear, coupled,
   time-dependent) functions subject only to the solver contract; M, dt, nodes, Q, preconditioner
   matrices, node values, right-hand sides and tau are all universally quantified. *)
From Coq Require Import List Arith Bool ZArith QArith Qcanon Ring.
From PySDC Require Import Model.Sweep Model.Verlet Model.SweepExec Proofs.SweepProofs Proofs.VerletProofs Model.SweepDAE Proofs.SweepDAEProofs Model.Boris Model.BorisExec Proofs.BorisProofs Model.SweepRKN Model.SweepMultistep Proofs.SweepRKNProofs Proofs.SweepMultistepProofs.
Import ListNotations.
Local Open Scope nat_scope.

Section C02.
  Context {K : Type} (kO kI : K) (kadd kmul ksub : K -> K -> K) (kopp : K -> K) (keqb : K -> K -> bool).
  Hypothesis Rth : ring_theory kO kI kadd kmul ksub kopp (@eq K).
  Hypothesis keqb_true : forall a b, keqb a b = true -> a = b.
  Context {X : Type}.
  Notation V := (X -> K).
  Local Infix "+!" := kadd (at level 50, left associativity).
  Local Infix "*!" := kmul (at level 40, left associativity).
  Local Infix "-!" := ksub (at level 50, left associativity).
  Variable M : nat.
  Variable dt t0 : K.
  Variable nodes : nat -> K.
  Variable Q : nat -> nat -> K.
  Variable weights : nat -> K.
  Variable solve : nat -> V -> K -> V -> K -> V.
  Variable feval : K -> V -> nat -> V.
  Notation tn := (tnode kadd kmul dt t0 nodes).
  Notation sumf := (sumf kO kadd).
  Notation tauval := (tauval kO).

  (* generic_implicit.update_nodes:  (I - dt QI (x) f)(U_new) = u0 + dt (Q - QI) F(U_old) + tau, row by row;
     the stored right-hand sides are f at the node's own time and NEW value; u0 and everything
     beyond node M are untouched. *)
  Theorem C02_generic_implicit_matrix_form : forall QI u f tau,
    solver_contract kmul ksub solve feval 0 ->
    let r := gi_update kO kadd kmul ksub keqb M dt t0 nodes Q solve feval QI u f tau in
    (forall j, j = 0 \/ M < j -> fst r j = u j /\ snd r j = f j) /\
    forall m, 1 <= m <= M ->
      snd r m = feval (tn m) (fst r m) /\
      forall x,
        fst r m x -! dt *! sumf (fun j => QI m j *! snd r j 0 x) 1 m
        = u 0 x +! dt *! sumf (fun j => (Q m j -! QI m j) *! f j 0 x) 1 M +! tauval tau m x.
  Proof. exact (gi_sweep_matrix_form kO kI kadd kmul ksub kopp keqb Rth keqb_true M dt t0 nodes Q solve feval). Qed.

  Theorem C02_imex_matrix_form : forall QI QE u f tau,
    solver_contract kmul ksub solve feval 0 ->
    let r := imex_update kO kadd kmul ksub M dt t0 nodes Q solve feval QI QE u f tau in
    (forall j, j = 0 \/ M < j -> fst r j = u j /\ snd r j = f j) /\
    forall m, 1 <= m <= M ->
      snd r m = feval (tn m) (fst r m) /\
      forall x,
        fst r m x -! dt *! sumf (fun j => QI m j *! snd r j 0 x) 1 m
                  -! dt *! sumf (fun j => QE m j *! snd r j 1 x) 1 (m - 1)
        = u 0 x +! dt *! sumf (fun j => (Q m j -! QI m j) *! f j 0 x) 1 M
                +! dt *! sumf (fun j => (Q m j -! QE m j) *! f j 1 x) 1 M +! tauval tau m x.
  Proof. exact (imex_sweep_matrix_form kO kI kadd kmul ksub kopp Rth M dt t0 nodes Q solve feval). Qed.

  Theorem C02_explicit_matrix_form : forall QE u f tau,
    let r := expl_update kO kadd kmul ksub M dt t0 nodes Q feval QE u f tau in
    (forall j, j = 0 \/ M < j -> fst r j = u j /\ snd r j = f j) /\
    forall m, 1 <= m <= M ->
      snd r m = feval (tn m) (fst r m) /\
      forall x,
        fst r m x -! dt *! sumf (fun j => QE m j *! snd r j 0 x) 1 (m - 1)
        = u 0 x +! dt *! sumf (fun j => (Q m j -! QE m j) *! f j 0 x) 1 M +! tauval tau m x.
  Proof. exact (expl_sweep_matrix_form kO kI kadd kmul ksub kopp Rth M dt t0 nodes Q feval). Qed.

  (* multi_implicit.update_nodes: two successive implicit solves per node; u* is the first-stage value *)
  Theorem C02_multi_implicit_two_stage_form : forall Q1 Q2 u f tau,
    solver_contract kmul ksub solve feval 0 -> solver_contract kmul ksub solve feval 1 ->
    let r := mi_update kO kadd kmul ksub M dt t0 nodes Q solve feval Q1 Q2 u f tau in
    (forall j, j = 0 \/ M < j -> fst r j = u j /\ snd r j = f j) /\
    forall m, 1 <= m <= M ->
      snd r m = feval (tn m) (fst r m) /\
      exists ustar : V, forall x,
        ustar x -! dt *! Q1 m m *! feval (tn m) ustar 0 x -! dt *! sumf (fun j => Q1 m j *! snd r j 0 x) 1 (m - 1)
        = u 0 x +! dt *! sumf (fun j => (Q m j -! Q1 m j) *! f j 0 x) 1 M
                +! dt *! sumf (fun j => Q m j *! f j 1 x) 1 M +! tauval tau m x
        /\
        fst r m x -! dt *! sumf (fun j => Q2 m j *! snd r j 1 x) 1 m
        = ustar x -! dt *! sumf (fun j => Q2 m j *! f j 1 x) 1 M.
  Proof. exact (mi_sweep_two_stage_form kO kI kadd kmul ksub kopp Rth M dt t0 nodes Q solve feval). Qed.

  (* Runge-Kutta sweepers (Butcher matrix A in pySDC layout): every stage satisfies the stage equation
       U_m - dt sum_{j<=m} A[m,j] f(U_j) = u0,  f stored at the stage's own time and value *)
  Theorem C02_runge_kutta_stage_form : forall (A : nat -> nat -> K) u f,
    solver_contract kmul ksub solve feval 0 ->
    let r := rk_update kO kadd kmul keqb M dt t0 nodes solve feval 1 (fun _ => A) u f in
    (forall j, j = 0 \/ M < j -> fst r j = u j /\ snd r j = f j) /\
    forall m, 1 <= m <= M ->
      snd r m = feval (tn m) (fst r m) /\
      forall x, fst r m x -! dt *! sumf (fun j => A m j *! snd r j 0 x) 1 m = u 0 x.
  Proof. exact (rk_stage_form kO kI kadd kmul ksub kopp keqb Rth keqb_true M dt t0 nodes solve feval). Qed.

  (* imex_1st_order_mass.update_nodes (mass matrix on the left and, on level 0, on u0; sums over columns 0..M in the
     code, whose column-0 terms cancel because node 0 is never updated) *)
  Theorem C02_imex_mass_matrix_form : forall QI QE (massop : V -> V) level0 u f tau,
    mass_solver_contract kmul ksub solve feval massop ->
    let r := mass_update kO kadd kmul ksub M dt t0 nodes Q solve feval QI QE massop level0 u f tau in
    let u0m := if level0 then massop (u 0) else u 0 in
    (forall j, j = 0 \/ M < j -> fst r j = u j /\ snd r j = f j) /\
    forall m, 1 <= m <= M ->
      snd r m = feval (tn m) (fst r m) /\
      forall x,
        massop (fst r m) x -! dt *! sumf (fun j => QI m j *! snd r j 0 x) 1 m
                          -! dt *! sumf (fun j => QE m j *! snd r j 1 x) 1 (m - 1)
        = u0m x +! dt *! sumf (fun j => (Q m j -! QI m j) *! f j 0 x) 1 M
                +! dt *! sumf (fun j => (Q m j -! QE m j) *! f j 1 x) 1 M +! tauval tau m x.
  Proof. exact (mass_sweep_matrix_form kO kI kadd kmul ksub kopp Rth M dt t0 nodes Q solve feval). Qed.

  (* verlet.update_nodes (second-order problems): position / velocity block form with Qx, QT, QQ, for every M,
     matrices, node data, tau and ANY acceleration function of (time, position, velocity) *)
  Theorem C02_verlet_block_form : forall (QQ Qx QT : nat -> nat -> K) (acc : K -> V -> V -> V) (p v f : nat -> V) taup tauv,
    let r := verlet_update kO kadd kmul ksub M dt t0 nodes Q QQ Qx QT acc p v f taup tauv in
    let pn := fst (fst r) in let vn := snd (fst r) in let fn := snd r in
    (forall j, j = 0 \/ M < j -> pn j = p j /\ vn j = v j /\ fn j = f j) /\
    forall m, 1 <= m <= M -> forall x,
      pn m x -! dt *! dt *! sumf (fun j => Qx m j *! fn j x) 1 (m - 1)
      = p 0 x +! dt *! sumf (fun j => Q m j) 1 M *! v 0 x
              +! dt *! dt *! sumf (fun j => (QQ m j -! Qx m j) *! f j x) 1 M +! tauval taup m x
      /\
      vn m x -! dt *! sumf (fun j => QT m j *! fn j x) 1 m
      = v 0 x +! dt *! sumf (fun j => (Q m j -! QT m j) *! f j x) 1 M +! tauval tauv m x.
  Proof. exact (fun QQ Qx QT acc => verlet_block_form kO kI kadd kmul ksub kopp Rth M dt t0 nodes Q QQ Qx QT acc). Qed.

  (* verlet.compute_end_point: the last node exactly when configured so, otherwise the full Picard evaluation with the
     weights and qQ (+ tau); with qQ = w^T Q (validated on the real table every run) the position end value is the
     second-order form of u0 + dt sum_n w_n F_n, i.e. x0 + dt sum_n w_n (v0 + dt sum_j Q_nj f_j) *)
  Theorem C02_verlet_end_point_form : forall (wts qQ : nat -> K) rin dcu (p v f : nat -> V) taup tauv,
    let e := verlet_end_point kadd kmul M dt wts qQ rin dcu p v f taup tauv in
    (rin && negb dcu = true -> e = (p M, v M)) /\
    (rin && negb dcu = false -> forall x,
       fst e x = p 0 x +! dt *! sumf wts 1 M *! v 0 x +! dt *! dt *! sumf (fun m => qQ m *! f m x) 1 M +! tauval taup M x /\
       snd e x = v 0 x +! dt *! sumf (fun m => wts m *! f m x) 1 M +! tauval tauv M x).
  Proof. exact (verlet_end_point_form kO kI kadd kmul ksub kopp Rth M dt). Qed.

  Theorem C02_verlet_end_point_second_order_form : forall (wts qQ : nat -> K) dcu rin (p v f : nat -> V) taup tauv,
    (forall m, qQ m = sumf (fun n => wts n *! Q n m) 1 M) ->
    rin && negb dcu = false ->
    let e := verlet_end_point kadd kmul M dt wts qQ rin dcu p v f taup tauv in
    forall x, fst e x = p 0 x +! dt *! sumf (fun n => wts n *! (v 0 x +! dt *! sumf (fun j => Q n j *! f j x) 1 M)) 1 M
                        +! tauval taup M x.
  Proof. exact (verlet_end_point_second_order_form kO kI kadd kmul ksub kopp Rth M dt Q). Qed.

  Theorem C02_integrate_is_dtQF : forall np (f : nat -> nat -> V) m x,
    integrate kO kadd kmul M dt Q np f m x = dt *! sumf (fun j => Q m j *! ftot kO kadd np (f j) x) 1 M.
  Proof. exact (integrate_is_dtQF kO kI kadd kmul ksub kopp Rth M dt Q). Qed.

  Theorem C02_end_point_copy : forall np do_coll (u : nat -> V) f tau,
    do_coll = false -> end_point kO kadd kmul M dt weights np true do_coll u f tau = u M.
  Proof. exact (end_point_copy kO kadd kmul M dt weights). Qed.

  Theorem C02_end_point_quadrature : forall np rin do_coll (u : nat -> V) f tau x,
    rin && negb do_coll = false ->
    end_point kO kadd kmul M dt weights np rin do_coll u f tau x
    = u 0 x +! dt *! sumf (fun m => weights m *! ftot kO kadd np (f m) x) 1 M +! tauval tau M x.
  Proof. exact (end_point_quadrature kO kI kadd kmul ksub kopp Rth M dt weights). Qed.

  Theorem C02_residual_is_defect : forall np (u : nat -> V) f tau m x,
    residual_vec kO kadd kmul ksub M dt Q np u f tau m x
    = u 0 x +! dt *! sumf (fun j => Q m j *! ftot kO kadd np (f j) x) 1 M +! tauval tau m x -! u m x.
  Proof. exact (residual_is_defect kO kI kadd kmul ksub kopp Rth M dt Q). Qed.

  (* DAE sweepers (pySDC/projects/DAE/sweepers): level.f holds the derivatives U'; F = eval_f(u, u', t) arbitrary *)
  Theorem C02_dae_fully_implicit_sweep_form : forall (QI : nat -> nat -> K) (F : V -> V -> K -> V)
      (dsolve : (V -> V) -> V -> K -> V -> K -> V) (u f : nat -> V),
    dae_solver_contract kO kadd kmul F dsolve ->
    let r := fi_update kO kadd kmul ksub M dt t0 nodes Q QI F dsolve u f in
    let un := fst r in let fn := snd r in
    (forall j, j = 0 \/ M < j -> un j = u j /\ fn j = f j) /\
    forall m, 1 <= m <= M ->
      (forall x, un m x = u 0 x +! dt *! sumf (fun j => Q m j *! fn j x) 1 M) /\
      exists ua : V,
        (forall x, ua x = u 0 x +! dt *! sumf (fun j => (Q m j -! QI m j) *! f j x) 1 M
                              +! dt *! sumf (fun j => QI m j *! fn j x) 1 m) /\
        forall x, F ua (fn m) (tn m) x = kO.
  Proof. exact (fun QI F dsolve => fi_sweep_form kO kI kadd kmul ksub kopp Rth M dt t0 nodes Q QI F dsolve). Qed.

  Theorem C02_dae_fully_implicit_fixed_point_residual_zero : forall (QI : nat -> nat -> K) (F : V -> V -> K -> V)
      (dsolve : (V -> V) -> V -> K -> V -> K -> V) (u f : nat -> V),
    dae_solver_contract kO kadd kmul F dsolve -> evalF_ext F ->
    (forall m j, m < j -> QI m j = kO) ->
    let r := fi_update kO kadd kmul ksub M dt t0 nodes Q QI F dsolve u f in
    (forall j x, 1 <= j <= M -> snd r j x = f j x) ->
    forall m, 1 <= m <= M -> forall x, dae_residual_vec kadd kmul dt t0 nodes F (fst r) (snd r) m x = kO.
  Proof. exact (fun QI F dsolve => fi_fixed_point_residual_zero kO kI kadd kmul ksub kopp Rth M dt t0 nodes Q QI F dsolve). Qed.

  Theorem C02_dae_integrate_is_dtQU : forall (f : nat -> V) m x,
    dae_integrate kO kadd kmul M dt Q f m x = dt *! sumf (fun j => Q m j *! f j x) 1 M.
  Proof. exact (dae_integrate_is_dtQF kO kI kadd kmul ksub kopp Rth M dt Q). Qed.

  Theorem C02_dae_end_point_form : forall rin dcu (u f : nat -> V) tau,
    dae_end_point kO kadd kmul M dt weights rin dcu u f tau = if rin && negb dcu then Some (u M) else None.
  Proof. exact (dae_end_point_form kO kadd kmul M dt weights). Qed.

  Theorem C02_dae_predict_form : forall spread (u f : nat -> V),
    let r := fi_predict kO M spread u f in
    fst r 0 = u 0 /\ snd r 0 = vzero kO /\
    forall m, 1 <= m <= M -> fst r m = (if spread then u 0 else vzero kO) /\ snd r m = vzero kO.
  Proof. exact (fi_predict_form kO M). Qed.

  Theorem C02_dae_runge_kutta_stage_form : forall (A : nat -> nat -> K) (F : V -> V -> K -> V)
      (dsolve : (V -> V) -> V -> K -> V -> K -> V) (u f : nat -> V),
    dae_solver_contract kO kadd kmul F dsolve ->
    let r := rkdae_update kO kadd kmul M dt t0 nodes Q A F dsolve u f in
    let un := fst r in let kn := snd r in
    (forall j, j = 0 \/ M < j -> un j = u j /\ kn j = f j) /\
    forall m, 1 <= m <= M ->
      (forall x, un m x = u 0 x +! dt *! sumf (fun j => Q m j *! kn j x) 1 M) /\
      exists ua : V,
        (forall x, ua x = u 0 x +! dt *! sumf (fun j => A m j *! kn j x) 1 m) /\
        forall x, F ua (kn m) (tn m) x = kO.
  Proof. exact (fun A F dsolve => rkdae_stage_form kO kI kadd kmul ksub kopp Rth M dt t0 nodes Q A F dsolve). Qed.

  (* SemiImplicitDAE: meshes = (differential, algebraic) pairs *)
  Context {Y : Type}.
  Notation mesh := ((X -> K) * (Y -> K))%type.
  Theorem C02_dae_semi_implicit_sweep_form : forall (QI : nat -> nat -> K) (F : mesh -> mesh -> K -> mesh)
      (dsolve : (mesh -> mesh) -> mesh -> K -> mesh -> K -> mesh) (u f : nat -> mesh),
    si_solver_contract kO kadd kmul F dsolve ->
    let r := si_update kO kadd kmul ksub M dt t0 nodes Q QI F dsolve u f in
    let un := fst r in let fn := snd r in
    (forall j, j = 0 \/ M < j -> un j = u j /\ fn j = f j) /\
    forall m, 1 <= m <= M ->
      snd (fn m) = snd (f m) /\
      (forall x, fst (un m) x = fst (u 0) x +! dt *! sumf (fun j => Q m j *! fst (fn j) x) 1 M) /\
      exists ud : X -> K,
        (forall x, ud x = fst (u 0) x +! dt *! sumf (fun j => Q m j *! fst (f j) x) 1 M
                              -! dt *! sumf (fun j => QI m j *! fst (f j) x) 1 m
                              +! dt *! sumf (fun j => QI m j *! fst (fn j) x) 1 m) /\
        (forall x, fst (F (ud, snd (un m)) (fst (fn m), snd (un m)) (tn m)) x = kO) /\
        (forall y, snd (F (ud, snd (un m)) (fst (fn m), snd (un m)) (tn m)) y = kO).
  Proof. exact (fun QI F dsolve => si_sweep_form kO kI kadd kmul ksub kopp Rth M dt t0 nodes Q QI F dsolve). Qed.

  Theorem C02_dae_semi_implicit_sweep_form_lower : forall (QI : nat -> nat -> K) (F : mesh -> mesh -> K -> mesh)
      (dsolve : (mesh -> mesh) -> mesh -> K -> mesh -> K -> mesh) (u f : nat -> mesh),
    si_solver_contract kO kadd kmul F dsolve ->
    (forall m j, m < j -> QI m j = kO) ->
    let r := si_update kO kadd kmul ksub M dt t0 nodes Q QI F dsolve u f in
    let un := fst r in let fn := snd r in
    forall m, 1 <= m <= M ->
      exists ud : X -> K,
        (forall x, ud x = fst (u 0) x +! dt *! sumf (fun j => (Q m j -! QI m j) *! fst (f j) x) 1 M
                              +! dt *! sumf (fun j => QI m j *! fst (fn j) x) 1 m) /\
        (forall x, fst (F (ud, snd (un m)) (fst (fn m), snd (un m)) (tn m)) x = kO) /\
        (forall y, snd (F (ud, snd (un m)) (fst (fn m), snd (un m)) (tn m)) y = kO).
  Proof. exact (fun QI F dsolve => si_sweep_form_lower kO kI kadd kmul ksub kopp Rth M dt t0 nodes Q QI F dsolve). Qed.

  Theorem C02_dae_semi_implicit_fixed_point_residual_zero : forall (QI : nat -> nat -> K) (F : mesh -> mesh -> K -> mesh)
      (dsolve : (mesh -> mesh) -> mesh -> K -> mesh -> K -> mesh) (u f : nat -> mesh),
    si_solver_contract kO kadd kmul F dsolve -> si_evalF_semi_explicit F ->
    (forall m j, m < j -> QI m j = kO) ->
    let r := si_update kO kadd kmul ksub M dt t0 nodes Q QI F dsolve u f in
    (forall j x, 1 <= j <= M -> fst (snd r j) x = fst (f j) x) ->
    forall m, 1 <= m <= M ->
      (forall x, fst (si_residual_vec kadd kmul dt t0 nodes F (fst r) (snd r) m) x = kO) /\
      (forall y, snd (si_residual_vec kadd kmul dt t0 nodes F (fst r) (snd r) m) y = kO).
  Proof. exact (fun QI F dsolve => si_fixed_point_residual_zero kO kI kadd kmul ksub kopp Rth M dt t0 nodes Q QI F dsolve). Qed.

  Theorem C02_dae_semi_implicit_integrate_form : forall (f : nat -> mesh) m,
    (forall x, fst (si_integrate kO kadd kmul M dt Q f m) x = dt *! sumf (fun j => Q m j *! fst (f j) x) 1 M) /\
    (forall y, snd (si_integrate kO kadd kmul M dt Q f m) y = kO).
  Proof. exact (si_integrate_form kO kI kadd kmul ksub kopp Rth M dt Q). Qed.
End C02.

Print Assumptions C02_generic_implicit_matrix_form.
Print Assumptions C02_imex_matrix_form.
Print Assumptions C02_explicit_matrix_form.
Print Assumptions C02_multi_implicit_two_stage_form.
Print Assumptions C02_runge_kutta_stage_form.
Print Assumptions C02_imex_mass_matrix_form.
Print Assumptions C02_verlet_block_form.
Print Assumptions C02_verlet_end_point_form.
Print Assumptions C02_verlet_end_point_second_order_form.
Print Assumptions C02_integrate_is_dtQF.
Print Assumptions C02_end_point_copy.
Print Assumptions C02_end_point_quadrature.
Print Assumptions C02_residual_is_defect.
Print Assumptions C02_dae_fully_implicit_sweep_form.
Print Assumptions C02_dae_fully_implicit_fixed_point_residual_zero.
Print Assumptions C02_dae_integrate_is_dtQU.
Print Assumptions C02_dae_end_point_form.
Print Assumptions C02_dae_predict_form.
Print Assumptions C02_dae_runge_kutta_stage_form.
Print Assumptions C02_dae_semi_implicit_sweep_form.
Print Assumptions C02_dae_semi_implicit_sweep_form_lower.
Print Assumptions C02_dae_semi_implicit_fixed_point_residual_zero.
Print Assumptions C02_dae_semi_implicit_integrate_form.

(* Non-vacuity of the ring hypothesis: Qc is a commutative ring.  The solver contract of the standard sweepers has no
   instance here (C12 checks it on the shipped problem classes); the DAE, multistep and Boris contracts have instances in
   SweepDAEProofs, SweepMultistepProofs and below. *)
Example C02_ring_instance : ring_theory (Q2Qc 0) (Q2Qc 1) Qcplus Qcmult Qcminus Qcopp (@eq Qc).
Proof. exact Qcrt. Qed.
Print Assumptions C02_ring_instance.

(* boris_2nd_order (particles, E + v x B force, Boris solver) *)
Section C02_boris.
  Context {K : Type} (kO kI : K) (kadd kmul ksub : K -> K -> K) (kopp : K -> K).
  Hypothesis Rth : ring_theory kO kI kadd kmul ksub kopp (@eq K).
  Context {X Fld A : Type}.
  Notation V := (X -> K).
  Local Infix "+!" := kadd (at level 50, left associativity).
  Local Infix "*!" := kmul (at level 40, left associativity).
  Local Infix "-!" := ksub (at level 50, left associativity).
  Variable M : nat.
  Variable dt t0 : K.
  Variable nodes delta : nat -> K.
  Variable Q QQ Sm ST SQ Sx : nat -> nat -> K.           (* Sm = sweeper.S *)
  Variable QId : nat -> K.                               (* np.diag(QI) *)
  Variable bf : K -> Fld -> V -> V -> A -> V.            (* P.build_f *)
  Variable ef : K -> V -> V -> A -> Fld.                 (* P.eval_f *)
  Variable bs : V -> K -> Fld -> Fld -> V -> V -> A -> V. (* P.boris_solver *)
  Variable attr : nat -> A.                              (* (q, m) of the particle object of each node *)
  Notation tn := (tnode kadd kmul dt t0 nodes).
  Notation sumf := (sumf kO kadd).
  Notation Fof := (bforce kadd kmul M dt t0 nodes bf attr).
  Notation bupdate := (boris_update kO kadd kmul ksub M dt t0 nodes delta Sm ST SQ Sx QId bf ef bs attr).

  (* update_nodes raises (before changing anything) exactly in the modelled case tau[m] present / tau[m-1] absent *)
  Theorem C02_boris_update_raises : forall p v f tau, tau_ok M tau = false -> bupdate p v f tau = None.
  Proof. exact (boris_update_raises kO kadd kmul ksub M dt t0 nodes delta Sm ST SQ Sx QId bf ef bs attr). Qed.

  (* node-to-node position form, frame, stored fields and velocities; NO assumption on the problem *)
  Theorem C02_boris_position_form : forall (p v : nat -> V) (f : nat -> Fld) tau,
    tau_ok M tau = true ->
    exists r, bupdate p v f tau = Some r /\
    let pn := fst (fst r) in let vn := snd (fst r) in let fn := snd r in
    (forall j, j = 0 \/ M < j -> pn j = p j /\ vn j = v j /\ fn j = f j) /\
    forall m, 1 <= m <= M ->
      fn m = ef (tn m) (pn m) (v m) (attr m) /\
      vn m = bs (bgather_vel kO kadd kmul ksub M dt t0 nodes Sm ST bf attr p v f tau m) (dt *! QId m)
                (fn (m - 1)) (fn m) (pn (m - 1)) (vn (m - 1)) (attr (m - 1)) /\
      forall x,
        pn m x -! pn (m - 1) x -! dt *! dt *! sumf (fun j => Sx m j *! Fof pn vn fn j x) 0 m
        = dt *! delta m *! v 0 x
          +! dt *! dt *! sumf (fun j => (SQ m j -! Sx m j) *! Fof p v f j x) 0 (S M) +! tauN kO ksub fst tau m x.
  Proof. exact (boris_position_form kO kI kadd kmul ksub kopp Rth M dt t0 nodes delta Sm ST SQ Sx QId bf ef bs attr). Qed.

  (* position / velocity node-to-node block form under the Boris solver contract *)
  Theorem C02_boris_block_form : forall khalf (G : Fld -> V -> A -> V) (p v : nat -> V) (f : nat -> Fld) tau,
    boris_contract kadd kmul bs khalf G -> build_f_is bf G -> (forall j, attr j = attr 0) ->
    tau_ok M tau = true ->
    exists r, bupdate p v f tau = Some r /\
    let pn := fst (fst r) in let vn := snd (fst r) in let fn := snd r in
    (forall j, j = 0 \/ M < j -> pn j = p j /\ vn j = v j /\ fn j = f j) /\
    forall m, 1 <= m <= M ->
      fn m = ef (tn m) (pn m) (v m) (attr m) /\
      forall x,
        pn m x -! pn (m - 1) x -! dt *! dt *! sumf (fun j => Sx m j *! Fof pn vn fn j x) 0 m
        = dt *! delta m *! v 0 x
          +! dt *! dt *! sumf (fun j => (SQ m j -! Sx m j) *! Fof p v f j x) 0 (S M) +! tauN kO ksub fst tau m x
        /\
        vn m x -! vn (m - 1) x -! dt *! QId m *! khalf *! (Fof pn vn fn (m - 1) x +! Fof pn vn fn m x)
        = dt *! sumf (fun j => (Sm m j -! ST m j) *! Fof p v f j x) 0 (S M) +! tauN kO ksub snd tau m x.
  Proof. exact (boris_block_form kO kI kadd kmul ksub kopp Rth M dt t0 nodes delta Sm ST SQ Sx QId bf ef bs attr). Qed.

  (* 0-to-node (matrix) form with the tables of __get_Qd (IE/EE) *)
  Theorem C02_boris_matrix_form : forall khalf (G : Fld -> V -> A -> V) Qx QT (p v : nat -> V) (f : nat -> Fld) tau,
    boris_tables_ok kO kmul ksub M nodes delta Q QQ Sm ST SQ Sx QId khalf Qx QT ->
    boris_contract kadd kmul bs khalf G -> build_f_is bf G -> (forall j, attr j = attr 0) -> tau_full M tau ->
    exists r, bupdate p v f tau = Some r /\
    let pn := fst (fst r) in let vn := snd (fst r) in let fn := snd r in
    let Fn := Fof pn vn fn in let Fo := Fof p v f in
    (forall j, j = 0 \/ M < j -> pn j = p j /\ vn j = v j /\ fn j = f j) /\
    forall m, 1 <= m <= M ->
      fn m = ef (tn m) (pn m) (v m) (attr m) /\
      forall x,
        pn m x -! dt *! dt *! sumf (fun j => Qx m j *! Fn j x) 0 m
        = p 0 x +! dt *! nodes m *! v 0 x
          +! dt *! dt *! sumf (fun j => (QQ m j -! Qx m j) *! Fo j x) 0 (S M) +! tauV kO fst tau m x
        /\
        vn m x -! dt *! sumf (fun j => QT m j *! Fn j x) 0 (S m)
        = v 0 x +! dt *! sumf (fun j => (Q m j -! QT m j) *! Fo j x) 0 (S M) +! tauV kO snd tau m x.
  Proof. exact (fun khalf G Qx QT => boris_matrix_form_tables kO kI kadd kmul ksub kopp Rth M dt t0 nodes delta Q QQ Sm ST SQ Sx QId bf ef bs attr khalf G Qx QT). Qed.

  Theorem C02_boris_integrate_form : forall (p v : nat -> V) (f : nat -> Fld) m x,
    bint_pos kO kadd kmul M dt t0 nodes Q QQ bf attr p v f m x
    = dt *! dt *! sumf (fun j => QQ m j *! Fof p v f j x) 1 M +! dt *! sumf (fun j => Q m j) 1 M *! v 0 x /\
    bint_vel kO kadd kmul M dt t0 nodes Q bf attr p v f m x = dt *! sumf (fun j => Q m j *! Fof p v f j x) 1 M.
  Proof. exact (boris_integrate_form kO kI kadd kmul ksub kopp Rth M dt t0 nodes Q QQ bf attr). Qed.

  Theorem C02_boris_end_point_form : forall (wts qQ : nat -> K) (p v : nat -> V) (f : nat -> Fld) tau,
    let e := boris_end_point kadd kmul M dt t0 nodes bf attr wts qQ p v f tau in
    forall x,
      fst e x = p 0 x +! dt *! sumf wts 1 M *! v 0 x +! dt *! dt *! sumf (fun m => qQ m *! Fof p v f m x) 1 M +! tauV kO fst tau M x /\
      snd e x = v 0 x +! dt *! sumf (fun m => wts m *! Fof p v f m x) 1 M +! tauV kO snd tau M x.
  Proof. exact (boris_end_point_form kO kI kadd kmul ksub kopp Rth M dt t0 nodes bf attr). Qed.

  Theorem C02_boris_residual_form : forall (p v : nat -> V) (f : nat -> Fld) tau m x,
    let r := boris_residual kO kadd kmul ksub M dt t0 nodes Q QQ bf attr p v f tau m in
    fst r x = p 0 x +! dt *! sumf (fun j => Q m j) 1 M *! v 0 x +! dt *! dt *! sumf (fun j => QQ m j *! Fof p v f j x) 1 M
              +! tauV kO fst tau m x -! p m x /\
    snd r x = v 0 x +! dt *! sumf (fun j => Q m j *! Fof p v f j x) 1 M +! tauV kO snd tau m x -! v m x.
  Proof. exact (boris_residual_form kO kI kadd kmul ksub kopp Rth M dt t0 nodes Q QQ bf attr). Qed.
End C02_boris.

(* the Boris algorithm of PenningTrap_3D.boris_solver solves the contract equation (any particles, fields, step) *)
Theorem C02_boris_algorithm_meets_contract : forall (P : Type),
  boris_contract Qcplus Qcmult (@boris_alg P) half lorentz /\
  build_f_is (fun (_ : Qc) fl (_ : P * ax -> Qc) ve a => lorentz fl ve a) lorentz.
Proof. exact (@boris_contract_satisfiable). Qed.

Example C02_boris_tables_satisfiable :
  boris_tables_ok (Q2Qc 0) Qcmult Qcminus 2 exnodes exdelta exQ exQQ exSm exST exSQ exSx exQId half exQx exQT.
Proof. exact boris_tables_satisfiable. Qed.

Print Assumptions C02_boris_update_raises.
Print Assumptions C02_boris_position_form.
Print Assumptions C02_boris_block_form.
Print Assumptions C02_boris_matrix_form.
Print Assumptions C02_boris_integrate_form.
Print Assumptions C02_boris_end_point_form.
Print Assumptions C02_boris_residual_form.
Print Assumptions C02_boris_algorithm_meets_contract.
Print Assumptions C02_boris_tables_satisfiable.

(* RungeKuttaNystrom (RKN, Velocity_Verlet) and MultiStep (Adams-Bashforth/Moulton, BackwardEuler) *)
Section C02ext.
  Context {K : Type} (kO kI : K) (kadd kmul ksub : K -> K -> K) (kopp : K -> K).
  Hypothesis Rth : ring_theory kO kI kadd kmul ksub kopp (@eq K).
  Context {X : Type}.
  Notation V := (X -> K).
  Local Infix "+!" := kadd (at level 50, left associativity).
  Local Infix "*!" := kmul (at level 40, left associativity).
  Local Infix "-!" := ksub (at level 50, left associativity).
  Notation sumf := (sumf kO kadd).

  Section RKN.
    Context {Fd : Type} {A : Type}.       (* Fd: what eval_f returns; A: the attributes (charges, masses) a particle object carries *)
    Variable M : nat.
    Variable dt t0 : K.
    Variable nodes : nat -> K.
    Variable QI Qx : nat -> nat -> K.
    Variable feval : A -> V -> V -> K -> Fd.
    Variable build_f : Fd -> A -> V -> V -> K -> V.
    Variable boris : V -> K -> Fd -> Fd -> A -> V -> V -> V.
    Notation tn := (rkn_tn kadd kmul dt t0 nodes).
    Notation acc := (rkn_acc kadd kmul dt t0 nodes build_f).

    Theorem C02_rkn_explicit_stage_form : forall st : @rkn_st K X Fd A,
      let r := rkn_update kO kadd kmul M dt t0 nodes QI Qx false feval build_f boris st in
      (forall j, j = 0 \/ M < j -> ra r j = ra st j /\ rp r j = rp st j /\ rv r j = rv st j /\ rf r j = rf st j) /\
      rf r M = rf st M /\
      forall m, 1 <= m <= M ->
        ra r m = ra st 0 /\
        (m < M -> rf r m = feval (ra r m) (rp r m) (rv r m) (tn m)) /\
        forall x,
          rp r m x = rp st 0 x +! dt *! nodes m *! rv st 0 x +! dt *! dt *! sumf (fun j => Qx m j *! acc r j x) 1 (m - 1) /\
          rv r m x = rv st 0 x +! dt *! sumf (fun j => QI m j *! acc r j x) 1 (m - 1).
    Proof. exact (rkn_explicit_stage_form kO kI kadd kmul ksub kopp Rth M dt t0 nodes QI Qx feval build_f boris). Qed.

    Theorem C02_rkn_end_point_form : forall (st : @rkn_st K X Fd A) (w wbar : nat -> K),
      1 <= M -> nodes M = kI ->
      (forall j, 1 <= j <= M - 1 -> QI M j = w j /\ Qx M j = wbar j) ->
      let r := rkn_update kO kadd kmul M dt t0 nodes QI Qx false feval build_f boris st in
      let e := rkn_end_point M r in
      e = (rp r M, rv r M) /\ rkn_end_attr M r = ra st 0 /\
      forall x,
        fst e x = rp st 0 x +! dt *! rv st 0 x +! dt *! dt *! sumf (fun j => wbar j *! acc r j x) 1 (M - 1) /\
        snd e x = rv st 0 x +! dt *! sumf (fun j => w j *! acc r j x) 1 (M - 1).
    Proof. exact (rkn_end_point_form kO kI kadd kmul ksub kopp Rth M dt t0 nodes QI Qx feval build_f boris). Qed.

    Theorem C02_rkn_velocity_verlet_form : forall st : @rkn_st K X Fd A,
      nodes 1 = kI -> nodes 3 = kI -> Qx 3 2 = kO ->
      (forall a p v v' t, feval a p v t = feval a p v' t) ->
      (forall c c' d fo fn a p v, (forall x, c x = c' x) -> forall x, boris c d fo fn a p v x = boris c' d fo fn a p v x) ->
      let r := rkn_update kO kadd kmul 3 dt t0 nodes QI Qx true feval build_f boris st in
      let e := rkn_end_point 3 r in
      let a0 := ra st 0 in
      let F0 := feval a0 (rp st 0) (rv st 0) t0 in
      let a := build_f F0 a0 (rp r 1) (rv r 1) (t0 +! dt *! nodes 1) in
      (forall x, rp r 1 x = rp st 0 x +! dt *! rv st 0 x) /\ rv r 1 = rv st 0 /\ rkn_end_attr 3 r = a0 /\
      (forall x, fst e x = rp st 0 x +! dt *! rv st 0 x +! dt *! dt *! Qx 3 1 *! a x) /\
      (forall x, snd e x = boris (fun _ => kO) dt F0 (feval a0 (fst e) (rv st 0) (t0 +! dt)) a0 (rp st 0) (rv st 0) x).
    Proof. exact (rkn_velocity_verlet_form kO kI kadd kmul ksub kopp Rth dt t0 nodes QI Qx feval build_f boris). Qed.

    Theorem C02_rkn_implicit_three_node_form : forall st : @rkn_st K X Fd A,
      let a0 := ra st 0 in
      let x0 := rp st 0 in
      let v0 := rv st 0 in
      let F0 := feval a0 x0 v0 t0 in
      let tend := t0 +! dt in
      let times0 := fun (v : V) => (fun x => v x *! kO) : V in
      let x1 : V := vadd kadd x0 (vscale kmul (dt *! nodes 1) v0) in
      let a1 := build_f F0 a0 x1 v0 (tn 1) in
      let x2 : V := vadd kadd (vadd kadd x0 (vscale kmul (dt *! nodes 2) v0)) (vscale kmul (dt *! dt *! Qx 2 1) a1) in
      let v2 := boris (times0 v0) dt F0 (feval a0 x2 v0 tend) a0 x0 v0 in
      let a2 := build_f F0 a0 x2 v2 (tn 2) in
      let x3a : V := vadd kadd (vadd kadd x0 (vscale kmul (dt *! nodes 3) v0)) (vscale kmul (dt *! dt *! Qx 3 1) a1) in
      let v3a := boris (times0 v0) dt F0 (feval a0 x3a v0 tend) a0 x0 v0 in
      let x3 : V := vadd kadd x3a (vscale kmul (dt *! dt *! Qx 3 2) a2) in
      let v3 := boris (times0 v3a) dt F0 (feval a0 x3 v3a tend) a0 x0 v0 in
      let r := rkn_update kO kadd kmul 3 dt t0 nodes QI Qx true feval build_f boris st in
      (rp r 0 = x0 /\ rv r 0 = v0) /\ (rp r 1 = x1 /\ rv r 1 = v0) /\ (rp r 2 = x2 /\ rv r 2 = v2) /\ (rp r 3 = x3 /\ rv r 3 = v3) /\
      (rf r 0 = F0 /\ rf r 1 = F0 /\ rf r 2 = F0 /\ rf r 3 = F0) /\
      (ra r 0 = a0 /\ ra r 1 = a0 /\ ra r 2 = a0 /\ ra r 3 = a0) /\
      (forall j, 3 < j -> ra r j = ra st j /\ rp r j = rp st j /\ rv r j = rv st j /\ rf r j = rf st j) /\
      rkn_end_point 3 r = (x3, v3) /\ rkn_end_attr 3 r = a0.
    Proof. exact (rkn_implicit_three_node_form kO kadd kmul dt t0 nodes QI Qx feval build_f boris). Qed.
  End RKN.

  Section MS.
    Variable khalf : K -> K.
    Variable feval : V -> K -> V.
    Variable solve : V -> K -> V -> K -> V.
    Notation dummy := (@ms_dummy K kO X).

    Theorem C02_multistep_update_form : forall (alpha beta : list K) starter (c : ms_cache) (es : list (@ms_entry K X)) t0 dt u0 f0,
      ms_solver_contract kmul ksub feval solve -> all_some c = Some es ->
      exists u1 : V,
        let time := t0 +! dt in
        ms_update kO kadd kmul ksub khalf feval solve alpha beta starter c t0 dt u0 f0
          = MsOk (cache_update c {| e_t := time; e_u := u1; e_f := feval u1 time |}, u1, feval u1 time) /\
        u1 = solve (ms_rhs kO kadd kmul ksub alpha beta es time) (dt *! last beta kO) (e_u (last es dummy)) time /\
        forall x,
          u1 x +! sumf (fun i => nth i alpha kO *! e_u (nth i es dummy) x) 0 (length alpha) -! dt *! last beta kO *! feval u1 time x
          = sumf (fun i => ms_dts kO ksub alpha es time i *! nth i beta kO *! e_f (nth i es dummy) x) 0 (length alpha).
    Proof. exact (ms_update_full_form kO kI kadd kmul ksub kopp khalf Rth feval solve). Qed.

    Theorem C02_multistep_one_step_run_form : forall a0 b0 b1 starter,
      ms_solver_contract kmul ksub feval solve -> forall ds c t u,
      ms_inv1 feval c t u ->
      let '(tr, cf, err) := ms_run kO kadd kmul ksub khalf feval solve [a0] [b0; b1] starter c t u ds in
      err = None /\ ms_traj1 kadd kmul ksub feval a0 b0 b1 t u tr ds /\ exists tl ul, ms_inv1 feval cf tl ul.
    Proof. exact (ms_one_step_run_form kO kI kadd kmul ksub kopp khalf Rth feval solve). Qed.

    Theorem C02_multistep_two_step_run_form : forall a0 a1 b0 b1 b2,
      ms_solver_contract kmul ksub feval solve -> forall dt0 ds t u,
      let '(tr, cf, err) := ms_run kO kadd kmul ksub khalf feval solve [a0; a1] [b0; b1; b2] Trapezoid [None; None] t u (dt0 :: ds) in
      err = None /\
      match tr with
      | [] => False
      | (t1, u1, f1) :: tr' =>
          t1 = t +! dt0 /\ f1 = feval u1 t1 /\
          (forall x, u1 x -! khalf dt0 *! f1 x = u x +! khalf dt0 *! feval u t x) /\
          ms_traj2 kadd kmul ksub feval a0 a1 b0 b1 b2 {| e_t := t; e_u := u; e_f := feval u t |} t1 u1 tr' ds
      end.
    Proof. exact (ms_two_step_run_form kO kI kadd kmul ksub kopp khalf Rth feval solve). Qed.

    Theorem C02_multistep_start_form : forall (alpha beta : list K) starter (c : ms_cache) t0 dt u0 f0,
      ms_solver_contract kmul ksub feval solve -> all_some c = None ->
      match starter, f0 with
      | NoStarter, _ => ms_update kO kadd kmul ksub khalf feval solve alpha beta starter c t0 dt u0 f0 = MsErr NotImplementedError
      | Trapezoid, None => ms_update kO kadd kmul ksub khalf feval solve alpha beta starter c t0 dt u0 f0 = MsErr TypeErrorNone
      | Trapezoid, Some f =>
          exists u1 : V,
            let time := t0 +! dt in let h := khalf dt in
            ms_update kO kadd kmul ksub khalf feval solve alpha beta starter c t0 dt u0 f0
              = MsOk (cache_update c {| e_t := time; e_u := u1; e_f := feval u1 time |}, u1, feval u1 time) /\
            forall x, u1 x -! h *! feval u1 time x = u0 x +! h *! f x
      end.
    Proof. exact (ms_update_start_form kO kadd kmul ksub khalf feval solve). Qed.
  End MS.
End C02ext.
Print Assumptions C02_rkn_explicit_stage_form.
Print Assumptions C02_rkn_end_point_form.
Print Assumptions C02_rkn_velocity_verlet_form.
Print Assumptions C02_multistep_update_form.
Print Assumptions C02_multistep_one_step_run_form.
Print Assumptions C02_multistep_two_step_run_form.
Print Assumptions C02_rkn_implicit_three_node_form.
Print Assumptions C02_multistep_start_form.
Print Assumptions ms_update_start_form.
Print Assumptions ms_update_uniform_form.
Print Assumptions rkn_old_stage_time_observable.

