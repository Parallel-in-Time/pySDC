(* C15 — ParaDiag: the property theorems.  Each is an instance of a lemma proved in
   Proofs/ParaDiagProofs.v (what only one theorem here needs is proved under it); Print Assumptions
   for all of them follows after the section is closed (inside, the section variables would be listed).

   The section variables are the number type: ANY field (carrier F, operations, field_theory w.r.t.
   Leibniz equality).  Satisfiable: the Gaussian rationals (GQ_field), used by the instances at the end.
   In the statements
     N          number of time steps (block size),   M  collocation nodes,   n  unknowns in space
     om, omi    exp(-2 pi i/N) and its conjugate: om * omi = 1, om^N = 1, om^j <> 1 for 0 < j < N
     s          1/sqrt N:  s * s * (1 + ... + 1) = 1   (N summands)
     g, gi      alpha^(1/N), alpha^(-1/N):  g * gi = 1, g^N = alpha   (so alpha <> 0)
   and wfft / wifft / E_mat / G_diag / G_mat / G_inv_cf / qdiag_update / paradiag_increment are the
   executable mirrors of get_weighted_FFT_matrix / get_weighted_iFFT_matrix / get_E_matrix /
   the factor in get_G_inv_matrix / G / G^-1 / QDiagonalization.update_nodes / one it_ParaDiag. *)
From Coq Require Import Arith Bool List Field QArith Qcanon.
From PySDC Require Import Model.ParaDiag Proofs.ParaDiagProofs.
Import ListNotations.

Section C15.
Variable F : Type.
Variables (f0 f1 : F) (fadd fmul fsub : F -> F -> F) (fopp : F -> F) (fdiv : F -> F -> F) (finv : F -> F).
Hypothesis Fth : field_theory f0 f1 fadd fmul fsub fopp fdiv finv (@eq F).

Notation "0" := f0. Notation "1" := f1.
Infix "+" := fadd. Infix "*" := fmul. Infix "-" := fsub. Infix "/" := fdiv.
Notation "- x" := (fopp x).
Notation sum := (sumn F f0 fadd).
Notation "x ^ k" := (fpow F f1 fmul x k).
Notation dl := (delta F f0 f1).
Notation mm := (mmul F f0 fadd fmul).
Notation mv := (mat_vec F f0 fadd fmul).
Notation appA := (apply_A F f0 fadd fmul).

(* (1) the weighted transforms are inverse to each other, both ways, for every N > 0, every alpha <> 0 *)
Theorem C15_weighted_fft_inverse :
  forall (N : nat) (s om omi g gi : F),
  (0 < N)%nat -> om * omi = 1 -> om ^ N = 1 -> (forall j, (0 < j < N)%nat -> om ^ j <> 1) ->
  s * s * sum N (fun _ => 1) = 1 -> g * gi = 1 ->
  forall j l, (j < N)%nat -> (l < N)%nat ->
  mm N (wifft F f0 f1 fadd fmul N s omi gi) (wfft F f0 f1 fadd fmul fdiv N s om gi) j l = dl j l.
Proof. exact (wifft_wfft F f0 f1 fadd fmul fsub fopp fdiv finv Fth). Qed.

Theorem C15_weighted_fft_inverse_right :
  forall (N : nat) (s om omi g gi : F),
  (0 < N)%nat -> om * omi = 1 -> om ^ N = 1 -> (forall j, (0 < j < N)%nat -> om ^ j <> 1) ->
  s * s * sum N (fun _ => 1) = 1 -> g * gi = 1 ->
  forall j l, (j < N)%nat -> (l < N)%nat ->
  mm N (wfft F f0 f1 fadd fmul fdiv N s om gi) (wifft F f0 f1 fadd fmul N s omi gi) j l = dl j l.
Proof. exact (wfft_wifft F f0 f1 fadd fmul fsub fopp fdiv finv Fth). Qed.

(* the matrix products with J^-1 and J, as the code forms them, have the closed forms the check
   evaluates in high precision:  W[j,k] = om^(jk) s gamma^k,  V[j,k] = gamma^-j conj(om)^(jk) s *)
Theorem C15_weighted_fft_closed_form :
  forall (N : nat) (s om gi : F) j k, (k < N)%nat ->
  wfft F f0 f1 fadd fmul fdiv N s om gi j k = om ^ (j * k) * s * (1 / gi ^ k).
Proof. exact (wfft_closed F f0 f1 fadd fmul fsub fopp fdiv finv Fth). Qed.

Theorem C15_weighted_ifft_closed_form :
  forall (N : nat) (s omi gi : F) j k, (j < N)%nat ->
  wifft F f0 f1 fadd fmul N s omi gi j k = gi ^ j * (omi ^ (j * k) * s).
Proof. exact (wifft_closed F f0 f1 fadd fmul fsub fopp fdiv finv Fth). Qed.

(* (2) they diagonalise the alpha-circulant matrix (N = 1 included: E = [-alpha], d_0 = -alpha), with
   factor d_l = -(1/gi) om^l = -alpha^(1/N) exp(-2 pi i l/N) ... *)
Theorem C15_diagonalises_alpha_circulant :
  forall (N : nat) (s om omi g gi alpha : F),
  (0 < N)%nat -> om * omi = 1 -> om ^ N = 1 -> (forall j, (0 < j < N)%nat -> om ^ j <> 1) ->
  s * s * sum N (fun _ => 1) = 1 -> g * gi = 1 -> g ^ N = alpha ->
  forall j l, (j < N)%nat -> (l < N)%nat ->
  mm N (mm N (wfft F f0 f1 fadd fmul fdiv N s om gi) (E_mat F f0 f1 fopp N alpha))
       (wifft F f0 f1 fadd fmul N s omi gi) j l
  = if Nat.eqb j l then d_fac F f1 fmul fopp fdiv om gi l else 0.
Proof. exact (diagonalisation F f0 f1 fadd fmul fsub fopp fdiv finv Fth). Qed.

(* ... and this is exactly the factor the local solves use: get_G_inv_matrix computes it as entry l of
   the unnormalised FFT of the J^-1-weighted first column of E_alpha *)
Theorem C15_local_factor_is_eigenvalue :
  forall (N : nat) (om omi g gi alpha : F),
  (0 < N)%nat -> om * omi = 1 -> om ^ N = 1 -> g * gi = 1 -> g ^ N = alpha ->
  forall l, (l < N)%nat ->
  G_diag F f0 f1 fadd fmul fopp fdiv N alpha om gi l = d_fac F f1 fmul fopp fdiv om gi l.
Proof.
  intros N om omi g gi alpha HN Hom HomN Hg HgN.
  exact (G_diag_is_dfac F f0 f1 fadd fmul fsub fopp fdiv finv Fth N om g gi alpha HN Hg HgN).
Qed.

(* closed form of G^-1 for G = d H + I (what scipy's sparse inverse must return), both ways *)
Theorem C15_G_inverse_closed_form :
  forall (M : nat) (d : F) i j, (0 < M)%nat -> 1 + d <> 0 -> (i < M)%nat -> (j < M)%nat ->
  mm M (G_mat F f0 f1 fadd fmul M d) (G_inv_cf F f0 f1 fadd fmul fsub fdiv M d) i j = dl i j /\
  mm M (G_inv_cf F f0 f1 fadd fmul fsub fdiv M d) (G_mat F f0 f1 fadd fmul M d) i j = dl i j.
Proof. exact (G_inverse F f0 f1 fadd fmul fsub fopp fdiv finv Fth). Qed.

(* (3) one application of the diagonalisation sweeper solves the local (collocation) system exactly.
   Hypotheses = contracts of numpy.linalg.eig / numpy.linalg.inv / the sparse inverse and of the
   problem's linear solve (solvability of I - dt w_m A is what makes such a solve exist). *)
Theorem C15_qdiag_one_shot :
  forall (M n : nat) (dt : F) (Q A G Ginv Sm Smi : mat F) (w : nat -> F) (solve : F -> vec F -> vec F),
  (forall i j, (i < M)%nat -> (j < M)%nat -> mm M Sm Smi i j = dl i j) ->
  (forall i j, (i < M)%nat -> (j < M)%nat -> mm M (mm M Q Ginv) Sm i j = Sm i j * w j) ->
  (forall i j, (i < M)%nat -> (j < M)%nat -> mm M G Ginv i j = dl i j) ->
  (forall m rhs i, (m < M)%nat -> (i < n)%nat ->
     solve (w m * dt) rhs i - (w m * dt) * appA n A (solve (w m * dt) rhs) i = rhs i) ->
  forall r m i, (m < M)%nat -> (i < n)%nat ->
  let x := qdiag_update F f0 fadd fmul M dt w Sm Smi Ginv solve r in
  mv M G x m i - sum M (fun j => (dt * Q m j) * appA n A (x j) i) = r m i.
Proof. exact (one_shot F f0 f1 fadd fmul fsub fopp fdiv finv Fth). Qed.

(* (4) the increment of one ParaDiag iteration (residual -> weighted FFT -> local sweeps -> weighted iFFT)
   solves the alpha-circulant all-at-once system
        (I (x) (I - dt Q (x) As) + E_alpha (x) H) inc = r
   exactly.  A is the matrix in the residual (full right-hand side), As the one the solver inverts
   (As = A for QDiagonalization; the implicit part only for QDiagonalizationIMEX). *)
Theorem C15_paradiag_increment_solves_alpha_system :
  forall (N M n : nat) (s om omi g gi alpha dt : F) (Q A As : mat F) (gf : stepsv F)
         (w : nat -> nat -> F) (Sm Smi Ginv : nat -> mat F) (solve : F -> vec F -> vec F) (u0 : vec F),
  (0 < N)%nat -> om * omi = 1 -> om ^ N = 1 -> (forall j, (0 < j < N)%nat -> om ^ j <> 1) ->
  s * s * sum N (fun _ => 1) = 1 -> g * gi = 1 -> g ^ N = alpha ->
  (forall l i j, (l < N)%nat -> (i < M)%nat -> (j < M)%nat -> mm M (Sm l) (Smi l) i j = dl i j) ->
  (forall l i j, (l < N)%nat -> (i < M)%nat -> (j < M)%nat ->
     mm M (mm M Q (Ginv l)) (Sm l) i j = Sm l i j * w l j) ->
  (forall l i j, (l < N)%nat -> (i < M)%nat -> (j < M)%nat ->
     mm M (G_mat F f0 f1 fadd fmul M (d_fac F f1 fmul fopp fdiv om gi l)) (Ginv l) i j = dl i j) ->
  (forall l m rhs i, (l < N)%nat -> (m < M)%nat -> (i < n)%nat ->
     solve (w l m * dt) rhs i - (w l m * dt) * appA n As (solve (w l m * dt) rhs) i = rhs i) ->
  forall u l m i, (l < N)%nat -> (m < M)%nat -> (i < n)%nat ->
  let inc := paradiag_increment F f0 fadd fmul fsub N M n dt Q A gf
               (wfft F f0 f1 fadd fmul fdiv N s om gi) (wifft F f0 f1 fadd fmul N s omi gi)
               w Sm Smi Ginv solve u0 u in
  inc l m i - sum M (fun j => (dt * Q m j) * appA n As (inc l j) i)
    + sum N (fun l' => E_mat F f0 f1 fopp N alpha l l' * mv M (H_mat F f0 f1 M) (inc l') m i)
  = block_residual F f0 fadd fmul fsub M n dt Q A gf u0 u l m i.
Proof.
  intros N M n s om omi g gi alpha dt Q A As gf w Sm Smi Ginv solve u0 HN Hom HomN Hprim Hs Hg HgN HSS Heig HGG Hsolve.
  exact (full_increment_solves_alpha_system F f0 f1 fadd fmul fsub fopp fdiv finv Fth N M n s om omi g gi alpha dt Q A gf
           w Sm Smi Ginv solve u0 HN Hom HomN Hprim Hs Hg HgN HSS Heig HGG As Hsolve).
Qed.

(* (5) a fixed point of the ParaDiag increment iteration satisfies the sequential collocation
   recurrences: on every step l, node m
        u_{l,m} = (u0 if l = 0 else u_{l-1,M-1}) + dt sum_j Q_{m,j} (A u_{l,j} + g_{l,j}),
   also when the local solves only invert the implicit part As (IMEX), and with forcing g. *)
Theorem C15_paradiag_fixed_point_is_sequential :
  forall (N M n : nat) (s om omi g gi alpha dt : F) (Q A As : mat F) (gf : stepsv F)
         (w : nat -> nat -> F) (Sm Smi Ginv : nat -> mat F) (solve : F -> vec F -> vec F) (u0 : vec F),
  (0 < N)%nat -> om * omi = 1 -> om ^ N = 1 -> (forall j, (0 < j < N)%nat -> om ^ j <> 1) ->
  s * s * sum N (fun _ => 1) = 1 -> g * gi = 1 -> g ^ N = alpha ->
  (forall l i j, (l < N)%nat -> (i < M)%nat -> (j < M)%nat -> mm M (Sm l) (Smi l) i j = dl i j) ->
  (forall l i j, (l < N)%nat -> (i < M)%nat -> (j < M)%nat ->
     mm M (mm M Q (Ginv l)) (Sm l) i j = Sm l i j * w l j) ->
  (forall l i j, (l < N)%nat -> (i < M)%nat -> (j < M)%nat ->
     mm M (G_mat F f0 f1 fadd fmul M (d_fac F f1 fmul fopp fdiv om gi l)) (Ginv l) i j = dl i j) ->
  (forall l m rhs i, (l < N)%nat -> (m < M)%nat -> (i < n)%nat ->
     solve (w l m * dt) rhs i - (w l m * dt) * appA n As (solve (w l m * dt) rhs) i = rhs i) ->
  forall u,
  (forall l m i, (l < N)%nat -> (m < M)%nat -> (i < n)%nat ->
     paradiag_increment F f0 fadd fmul fsub N M n dt Q A gf
       (wfft F f0 f1 fadd fmul fdiv N s om gi) (wifft F f0 f1 fadd fmul N s omi gi)
       w Sm Smi Ginv solve u0 u l m i = 0) ->
  forall l m i, (l < N)%nat -> (m < M)%nat -> (i < n)%nat ->
    u l m i = step_ic F M u0 u l i + sum M (fun j => (dt * Q m j) * (appA n A (u l j) i + gf l j i)).
Proof.
  intros N M n s om omi g gi alpha dt Q A As gf w Sm Smi Ginv solve u0 HN Hom HomN Hprim Hs Hg HgN HSS Heig HGG Hsolve.
  exact (full_fixed_point_is_sequential F f0 f1 fadd fmul fsub fopp fdiv finv Fth N M n s om omi g gi alpha dt Q A gf
           w Sm Smi Ginv solve u0 HN Hom HomN Hprim Hs Hg HgN HSS Heig HGG As Hsolve).
Qed.

(* (6) error propagation.  Let ustar be the sequential collocation solution (non-IMEX: the solver
   inverts the full A).  One ParaDiag iteration maps the error e = u - ustar to e' with
        (I (x) (I - dt Q (x) A) + E_alpha (x) H) e' = (E_alpha - E_0) (x) H e ,
   i.e. zero except in the first step, where it is -alpha times the error at the end of the block:
   the only coupling of the old iterate into the new one is through alpha. *)
Theorem C15_paradiag_error_equation :
  forall (N M n : nat) (s om omi g gi alpha dt : F) (Q A : mat F) (gf : stepsv F)
         (w : nat -> nat -> F) (Sm Smi Ginv : nat -> mat F) (solve : F -> vec F -> vec F) (u0 : vec F),
  (0 < N)%nat -> (0 < M)%nat -> om * omi = 1 -> om ^ N = 1 -> (forall j, (0 < j < N)%nat -> om ^ j <> 1) ->
  s * s * sum N (fun _ => 1) = 1 -> g * gi = 1 -> g ^ N = alpha ->
  (forall l i j, (l < N)%nat -> (i < M)%nat -> (j < M)%nat -> mm M (Sm l) (Smi l) i j = dl i j) ->
  (forall l i j, (l < N)%nat -> (i < M)%nat -> (j < M)%nat ->
     mm M (mm M Q (Ginv l)) (Sm l) i j = Sm l i j * w l j) ->
  (forall l i j, (l < N)%nat -> (i < M)%nat -> (j < M)%nat ->
     mm M (G_mat F f0 f1 fadd fmul M (d_fac F f1 fmul fopp fdiv om gi l)) (Ginv l) i j = dl i j) ->
  (forall l m rhs i, (l < N)%nat -> (m < M)%nat -> (i < n)%nat ->
     solve (w l m * dt) rhs i - (w l m * dt) * appA n A (solve (w l m * dt) rhs) i = rhs i) ->
  forall ustar u,
  (forall l m i, (l < N)%nat -> (m < M)%nat -> (i < n)%nat ->
     ustar l m i = step_ic F M u0 ustar l i + sum M (fun j => (dt * Q m j) * (appA n A (ustar l j) i + gf l j i))) ->
  forall l m i, (l < N)%nat -> (m < M)%nat -> (i < n)%nat ->
  let e' := fun l m i =>
     paradiag_iter F f0 fadd fmul fsub N M n dt Q A gf
       (wfft F f0 f1 fadd fmul fdiv N s om gi) (wifft F f0 f1 fadd fmul N s omi gi)
       w Sm Smi Ginv solve u0 u l m i - ustar l m i in
  e' l m i - sum M (fun j => (dt * Q m j) * appA n A (e' l j) i)
    + sum N (fun l' => E_mat F f0 f1 fopp N alpha l l' * mv M (H_mat F f0 f1 M) (e' l') m i)
  = match l with O => - (alpha * (u (pred N) (pred M) i - ustar (pred N) (pred M) i)) | S _ => 0 end.
Proof. exact (error_equation F f0 f1 fadd fmul fsub fopp fdiv finv Fth). Qed.

(* (7) frame / idempotence of the public QDiagonalization.set_G_inv: everything update_nodes reads
   (params.G_inv and the diagonalisation of Q G^-1) is a function of the LAST argument of set_G_inv
   only, and the stored factor is that argument; hence, whatever the sweeper was configured with
   before, one update_nodes after set_G_inv g solves the local system of G = g^-1.
   The first two equations hold by the shape of the model: its set_G_inv does not read the old state, as the
   Python method overwrites all four fields; what is proved is that the model was written that way. *)
Theorem C15_set_G_inv_frame :
  forall (eig : mat F -> (nat -> F) * mat F * mat F) (M : nat) (Q : mat F) (st st' : qd_state F) (g1 g2 : mat F),
  set_G_inv F f0 fadd fmul eig M Q st g2 = set_G_inv F f0 fadd fmul eig M Q st' g2 /\
  set_G_inv F f0 fadd fmul eig M Q (set_G_inv F f0 fadd fmul eig M Q st g1) g2 = set_G_inv F f0 fadd fmul eig M Q st g2 /\
  st_Ginv F (set_G_inv F f0 fadd fmul eig M Q st g2) = g2.
Proof.
  intros. split; [reflexivity|split; [reflexivity|]].
  unfold set_G_inv. destruct (eig _) as [[w Sm] Smi]. reflexivity.
Qed.

Theorem C15_one_shot_after_set_G_inv :
  forall (eig : mat F -> (nat -> F) * mat F * mat F) (M n : nat) (dt : F) (Q A G g : mat F)
         (solve : F -> vec F -> vec F) (st : qd_state F),
  (let '(w, Sm, Smi) := eig (mm M Q g) in
     (forall i j, (i < M)%nat -> (j < M)%nat -> mm M Sm Smi i j = dl i j) /\
     (forall i j, (i < M)%nat -> (j < M)%nat -> mm M (mm M Q g) Sm i j = Sm i j * w j) /\
     (forall m rhs i, (m < M)%nat -> (i < n)%nat ->
        solve (w m * dt) rhs i - (w m * dt) * appA n A (solve (w m * dt) rhs) i = rhs i)) ->
  (forall i j, (i < M)%nat -> (j < M)%nat -> mm M G g i j = dl i j) ->
  forall r m i, (m < M)%nat -> (i < n)%nat ->
  let x := update_nodes_st F f0 fadd fmul M dt (set_G_inv F f0 fadd fmul eig M Q st g) solve r in
  mv M G x m i - sum M (fun j => (dt * Q m j) * appA n A (x j) i) = r m i.
Proof.
  intros eig M n dt Q A G g solve st. unfold update_nodes_st, set_G_inv. destruct (eig (mm M Q g)) as [[w Sm] Smi].
  intros [HSS [Heig Hsolve]] HGG. cbn [st_w st_S st_Si st_Ginv].
  exact (one_shot F f0 f1 fadd fmul fsub fopp fdiv finv Fth M n dt Q A G g Sm Smi w solve HSS Heig HGG Hsolve).
Qed.

End C15.

Print Assumptions C15_weighted_fft_inverse.
Print Assumptions C15_weighted_fft_inverse_right.
Print Assumptions C15_weighted_fft_closed_form.
Print Assumptions C15_weighted_ifft_closed_form.
Print Assumptions C15_diagonalises_alpha_circulant.
Print Assumptions C15_local_factor_is_eigenvalue.
Print Assumptions C15_G_inverse_closed_form.
Print Assumptions C15_qdiag_one_shot.
Print Assumptions C15_paradiag_increment_solves_alpha_system.
Print Assumptions C15_paradiag_fixed_point_is_sequential.
Print Assumptions C15_paradiag_error_equation.
Print Assumptions C15_set_G_inv_frame.
Print Assumptions C15_one_shot_after_set_G_inv.

(* ---- non-vacuity: the Gaussian rationals are a field and the hypotheses of (1)-(6) are satisfiable on
   non-trivial instances (N = 4, om = -i, alpha = 1/16; M = 2 one-shot; 4-step implicit-Euler block).
   Not instantiated: As <> A (the IMEX reading of (4), (5)) and the eig oracle of (7). *)
Theorem C15_gaussian_rationals_field : field_theory g0 g1 gadd gmul gsub gopp gdiv ginv (@eq GQ).
Proof. exact GQ_field. Qed.
Print Assumptions C15_gaussian_rationals_field.

Example C15_nonvacuous_roots :
  gmul i4_om i4_omi = g1 /\ fpow GQ g1 gmul i4_om 4 = g1 /\
  (forall j, (0 < j < 4)%nat -> fpow GQ g1 gmul i4_om j <> g1) /\
  gmul (gmul i4_s i4_s) (sumn GQ g0 gadd 4 (fun _ => g1)) = g1 /\
  gmul i4_g i4_gi = g1 /\ fpow GQ g1 gmul i4_g 4 = i4_alpha.
Proof. exact (conj i4_Hom (conj i4_HomN (conj i4_Hprim (conj i4_Hs (conj i4_Hg i4_HgN))))). Qed.
Print Assumptions C15_nonvacuous_roots.

(* the diagonalisation theorem at the instance, its four eigenvalues evaluated: diag(-1/2, i/2, 1/2, -i/2) *)
Example C15_nonvacuous_diagonalisation :
  gq_tab2 4 4 (mmul GQ g0 gadd gmul 4 (mmul GQ g0 gadd gmul 4 i4_W i4_E) i4_V) =
  [[(-1 # 2, 0); (0, 0); (0, 0); (0, 0)]; [(0, 0); (0, 1 # 2); (0, 0); (0, 0)];
   [(0, 0); (0, 0); (1 # 2, 0); (0, 0)]; [(0, 0); (0, 0); (0, 0); (0, -1 # 2)]]%Q.
Proof.
  unfold gq_tab2. cbn [map seq]. rewrite !i4_diagonalisation by auto with arith. vm_compute. reflexivity.
Qed.
Print Assumptions C15_nonvacuous_diagonalisation.

Example C15_nonvacuous_one_shot : forall r m i, (m < 2)%nat -> (i < 1)%nat ->
  Kop GQ g0 gadd gmul gsub 2 1 o_dt o_Q o_A o_G
      (qdiag_update GQ g0 gadd gmul 2 o_dt o_w o_S o_Si o_Ginv o_solve r) m i = r m i.
Proof.
  intros r m i.
  apply (one_shot GQ g0 g1 gadd gmul gsub gopp gdiv ginv GQ_field 2 1 o_dt o_Q o_A o_G o_Ginv o_S o_Si o_w o_solve);
    auto using o_HSS, o_Heig, o_HGG, o_Hsolve.
Qed.
Print Assumptions C15_nonvacuous_one_shot.

Example C15_nonvacuous_fixed_point :
  (forall l m i, (l < 4)%nat -> (m < 1)%nat -> (i < 1)%nat -> b_incr b_useq l m i = g0) /\
  seq_collocation GQ g0 gadd gmul 4 1 1 b_dt b_Q b_A b_g b_u0 b_useq.
Proof. exact (conj b_useq_fixed (b_fixed_point_instance b_useq b_useq_fixed)). Qed.
Print Assumptions C15_nonvacuous_fixed_point.

Example C15_nonvacuous_error_equation : forall u l m i, (l < 4)%nat -> (m < 1)%nat -> (i < 1)%nat ->
  Calpha GQ g0 g1 gadd gmul gsub gopp 4 1 1 i4_alpha b_dt b_Q b_A
    (fun l m i => gsub (paradiag_iter GQ g0 gadd gmul gsub 4 1 1 b_dt b_Q b_A b_g i4_W i4_V b_w b_S b_S b_Ginv b_solve b_u0 u l m i)
                       (b_useq l m i)) l m i
  = match l with O => gopp (gmul i4_alpha (gsub (u 3 0 i) (b_useq 3 0 i)))%nat | S _ => g0 end.
Proof. exact b_error_equation_instance. Qed.
Print Assumptions C15_nonvacuous_error_equation.

Example C15_iteration_converges_instance :
  let u3 := b_iter 3 4 1 1 b_dt b_Q b_A b_g i4_W i4_V b_w b_S b_S b_Ginv b_solve b_u0 b_spread in
  (this (gnorm2 (gsub (u3 3 0 0) (b_useq 3 0 0)))%nat < 1 # 1000000)%Q.
Proof. exact b_iteration_converges. Qed.
Print Assumptions C15_iteration_converges_instance.
