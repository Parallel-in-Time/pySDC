(* C18 — property theorems only.  Each is a lemma of Proofs/FDProofs.v or Proofs/FDndProofs.v, or a short consequence
   of some proved here, and is followed by Print Assumptions. *)
From Coq Require Import ZArith QArith Qabs List Bool Lia ZifyBool Permutation.
From PySDC Require Import Base.Dyadic Base.Poly Model.FD Model.FDnd Proofs.TransferOpsProofs Proofs.FDProofs Proofs.FDndProofs.
Import ListNotations.

(* (1) Stencil exactness for EVERY polynomial below the number of stencil points, every x, h<>0:
   the validator that the check evaluates on the weights regenerated from the live code is sound. *)
Theorem C18_stencil_exact_for_all_polynomials :
  forall steps w d rtol, check_stencil steps w d rtol = true ->
  forall a, (length a <= length steps)%nat ->
  forall x h, ~ (h == 0)%Q ->
  (Qabs (wsum (Qw w) (map (fun s => x + inject_Z s * h) steps) (fun y => peval a ((y - x) / h))
        - inject_Z (zfact d) * nth d a 0)
   <= abs_lin_from 0 a (stencil_tol steps w rtol))%Q.
Proof. exact stencil_sound. Qed.
Print Assumptions C18_stencil_exact_for_all_polynomials.


(* (1') the same for polynomials given in the GLOBAL monomial basis: the stencil applied to p(x + s_i h)
   returns d! * [t^d] p(x + t h) = h^d p^(d)(x); pshift c x h are the Taylor coefficients of t |-> p(x + t h)
   (peval (pshift c x h) t == peval c (x + t h), proved as C11_pshift_correct) *)
Theorem C18_stencil_exact_global_basis :
  forall steps w d rtol, check_stencil steps w d rtol = true ->
  forall c, (length c <= length steps)%nat ->
  forall x h,
  (Qabs (wsum (Qw w) (map (fun s => x + inject_Z s * h) steps) (peval c)
        - inject_Z (zfact d) * nth d (pshift c x h) 0)
   <= abs_lin_from 0 (pshift c x h) (stencil_tol steps w rtol))%Q.
Proof.
  intros steps w d rtol Hc c Hlen x h. rewrite wsum_affine, <- (wsum_ext _ _ _ _ (peval_pshift c x h)).
  apply (stencil_moments steps w d rtol Hc). rewrite length_pshift. exact Hlen.
Qed.
Print Assumptions C18_stencil_exact_global_basis.

(* (1'') Neumann boundary rows: matrix row + boundary-vector entry for the prescribed derivative are exact for EVERY
   polynomial with at most n coefficients, every x, every h <> 0 (pderiv = formal derivative of the coefficient list, so
   peval (pderiv a) ((y - x)/h) / h is the derivative of y |-> peval a ((y - x)/h)) *)
Theorem C18_neumann_row_exact_for_all_polynomials :
  forall steps w c g d rtol n, check_neumann_row steps w c g d rtol n = true ->
  forall a, (length a <= n)%nat ->
  forall x h, ~ (h == 0)%Q ->
  (Qabs (wsum (Qw w) (map (fun s => x + inject_Z s * h) steps) (fun y => peval a ((y - x) / h))
         + D2Q c * h * (peval (pderiv a) (((x + inject_Z g * h) - x) / h) / h)
         - inject_Z (zfact d) * nth d a 0)
   <= abs_lin_from 0 a (neumann_tol steps w c g rtol))%Q.
Proof. exact neumann_row_sound. Qed.
Print Assumptions C18_neumann_row_exact_for_all_polynomials.

(* (2) get_steps returns n pairwise distinct offsets, n as documented, for every layout *)
Theorem C18_steps_count : forall der ord st, (0 < der)%Z -> (0 < ord)%Z ->
  Z.of_nat (length (get_steps der ord st)) = steps_n der ord st.
Proof. exact get_steps_length. Qed.
Print Assumptions C18_steps_count.

Theorem C18_steps_distinct : forall der ord st, NoDup (get_steps der ord st).
Proof. exact get_steps_NoDup. Qed.
Print Assumptions C18_steps_distinct.

Theorem C18_steps_center : forall der ord x, (0 < der)%Z -> (0 < ord)%Z ->
  let n := steps_n der ord Center in
  In x (get_steps der ord Center) <-> (- (n / 2) <= x < - (n / 2) + n)%Z.
Proof. intros der ord x _ _. apply get_steps_center_In. Qed.
Print Assumptions C18_steps_center.

Theorem C18_steps_upwind : forall der ord x, (0 < der)%Z -> (0 < ord)%Z ->
  In x (get_steps der ord Upwind) <->
  (if (ord + der <=? 3)%Z then (- (ord + der) < x <= 0)%Z else (- (ord + der - 2) <= x <= 1)%Z).
Proof. intros der ord x _ _. apply get_steps_upwind_In. Qed.
Print Assumptions C18_steps_upwind.

(* (3) periodic wrap-around: for every size exceeding the largest offset, the matrix assembled
   from the three eye() terms per offset has in entry (r,c) exactly the weights whose wrapped
   column (r + s_i) mod size equals c *)
Theorem C18_periodic_wraps : forall size steps w r c,
  (0 < size)%Z -> (0 <= r < size)%Z -> (0 <= c < size)%Z -> steps_small size steps = true ->
  (D2Q (periodic_entry size r c steps w) == D2Q (wrap_entry size r c steps w))%Q.
Proof. exact periodic_entry_is_wrap. Qed.
Print Assumptions C18_periodic_wraps.

(* non-vacuity: the classical second-difference stencil passes the validator with zero tolerance *)
Example C18_nonvacuous :
  check_stencil [-1; 0; 1]%Z [Dy 1 0; Dy (-2) 0; Dy 1 0] 2 d0 = true.
Proof. vm_compute. reflexivity. Qed.
Print Assumptions C18_nonvacuous.

(* (4) dimensions 2 and 3: the assembled Kronecker sums (entry functions fd2_entry / fd3_entry = the three sp.kron terms of
   get_finite_difference_matrix, compared entry-wise with the real matrices every run) apply the 1-D operator A along each axis
   of a row-major grid function, for EVERY size n, every 1-D matrix A (any boundary treatment) and every grid function u, over
   any commutative ring. *)
Section C18_nd.
  Context {K : Type} (kO kI : K) (kadd kmul ksub : K -> K -> K) (kopp : K -> K).
  Hypothesis Rth : ring_theory kO kI kadd kmul ksub kopp (@eq K).
  Theorem C18_2d_matrix_applies_operator_along_each_axis : forall n (A : nat -> nat -> K) (u : nat -> nat -> K) i j,
    (i < n)%nat -> (j < n)%nat ->
    sumn kO kadd (fun c => kmul (fd2_entry kO kI kadd kmul n A (i * n + j) c) (u (c / n) (c mod n))%nat) (n * n)
    = kadd (sumn kO kadd (fun k => kmul (A i k) (u k j)) n) (sumn kO kadd (fun k => kmul (A j k) (u i k)) n).
  Proof. exact (fd2_apply kO kI kadd kmul ksub kopp Rth). Qed.
  Theorem C18_3d_matrix_applies_operator_along_each_axis : forall n (A : nat -> nat -> K) (u : nat -> nat -> nat -> K) i j l,
    (i < n)%nat -> (j < n)%nat -> (l < n)%nat ->
    sumn kO kadd (fun c => kmul (fd3_entry kO kI kadd kmul n A ((i * n + j) * n + l) c)
                                (u (c / (n * n)) ((c / n) mod n) (c mod n))%nat) (n * n * n)
    = kadd (kadd (sumn kO kadd (fun k => kmul (A i k) (u k j l)) n) (sumn kO kadd (fun k => kmul (A l k) (u i j k)) n))
           (sumn kO kadd (fun k => kmul (A j k) (u i k l)) n).
  Proof. exact (fd3_apply kO kI kadd kmul ksub kopp Rth). Qed.
End C18_nd.
Print Assumptions C18_2d_matrix_applies_operator_along_each_axis.
Print Assumptions C18_3d_matrix_applies_operator_along_each_axis.
