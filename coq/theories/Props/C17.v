(* C17 — spectral helper matrices agree with exact polynomial / Fourier calculus: property theorems only.
   Each is closed by [exact] of a lemma of Proofs/SpectralProofs.v, or proved here from its lemmas where it is the
   only user, and followed by Print Assumptions.
   Notation: chebT n / chebU n are the coefficient lists of T_n / U_n (three-term recurrence), pseries b c N is the
   polynomial sum_{j<N} c_j b_j, peq is coefficientwise equality (it implies equal values: C17_peq_values),
   pderiv / pint the formal derivative / antiderivative, mv N M c the matrix-vector product, pderiv_n p the p-th
   derivative, pdefint p a b the integral over [a, b], meq N equality of the entries below N, ceq componentwise equality
   of complex numbers (these four are defined in Proofs/SpectralProofs.v), and DT, T2U, U2T, ...
   the entry formulas of the helper's matrices (Model/Spectral.v) that every run compares with the live code. *)
From Coq Require Import ZArith QArith Qabs Qfield List Bool Lia Lqa.
From PySDC Require Import Base.Dyadic Base.Poly Model.Spectral Proofs.SpectralProofs.
Import ListNotations.
Open Scope Q_scope.

Theorem C17_peq_values : forall p q x, peq p q -> peval p x == peval q x.
Proof. exact peval_peq. Qed.
Print Assumptions C17_peq_values.

(* differentiation in the T basis, every N, every coefficient vector *)
Theorem C17_cheb_diff_correct : forall N c,
  peq (pderiv (pseries chebT c N)) (pseries chebT (mv N DT c) N).
Proof. exact cheb_diff_correct. Qed.
Print Assumptions C17_cheb_diff_correct.

(* the operator returned on an interval [x0, x1] (D^p / fac^p, fac = (x1-x0)/2, off = (x1+x0)/2) differentiates the
   series in the mapped basis T_j((y - off)/fac); pcomp_aff a b p is p(a X + b) (C17_pcomp_aff_value) *)
Theorem C17_cheb_diff_mapped : forall N c fac off p, ~ fac == 0 ->
  peq (pderiv_n p (pcomp_aff (/ fac) (- off / fac) (pseries chebT c N)))
      (pcomp_aff (/ fac) (- off / fac) (pseries chebT (mv N (DTp N fac p) c) N)).
Proof. exact cheb_diff_mapped. Qed.
Print Assumptions C17_cheb_diff_mapped.

Theorem C17_pcomp_aff_value : forall a b p y, peval (pcomp_aff a b p) y == peval p (a * y + b).
Proof.
  intros a b p y. unfold pcomp_aff. rewrite peval_pseries, (peval_as_sum p (a * y + b)).
  apply bigsum_ext. intros j Hj. rewrite peval_linpow. reflexivity.
Qed.
Print Assumptions C17_pcomp_aff_value.

(* basis conversions represent the same polynomial *)
Theorem C17_T2U_correct : forall N c, peq (pseries chebT c N) (pseries chebU (mv N T2U c) N).
Proof. exact T2U_correct. Qed.
Print Assumptions C17_T2U_correct.

Theorem C17_U2T_correct : forall N c, peq (pseries chebU c N) (pseries chebT (mv N U2T c) N).
Proof. exact U2T_correct. Qed.
Print Assumptions C17_U2T_correct.

(* boundary rows (reference coordinates -1, 0, 1) *)
Theorem C17_dirichlet_row_is_evaluation : forall N c b,
  peval (pseries chebT c N) (bpt_Q b) == bigsum (fun j => dir_row b j * c j) N.
Proof. exact dirichlet_row_is_evaluation. Qed.
Print Assumptions C17_dirichlet_row_is_evaluation.

Theorem C17_neumann_row_is_derivative : forall N c b, b <> B0 ->
  peval (pderiv (pseries chebT c N)) (bpt_Q b) == bigsum (fun j => neu_row b j * c j) N.
Proof. exact neumann_row_is_derivative. Qed.
Print Assumptions C17_neumann_row_is_derivative.

Theorem C17_integ_row_is_integral : forall N c,
  pdefint (pseries chebT c N) (-(1)) 1 == bigsum (fun j => integ_row j * c j) N.
Proof. exact integ_row_is_integral. Qed.
Print Assumptions C17_integ_row_is_integral.

(* get_integration_weights carries the interval map: weights = (L/2) * integral row *)
Theorem C17_weights_carry_interval : forall L n, ~ L == 0 -> wT L n == (L / 2) * integ_row n.
Proof.
  intros L n HL. unfold wT, integ_row.
  destruct n as [|[|n]]; cbn [Nat.ltb Nat.leb]; [change (sgn 0) with 1; field; exact HL | change (sgn 1) with (-(1)); field; exact HL |].
  rewrite !Qn_S. pose proof (Qn_nonneg n). pose proof (Qn_13_neq0 n). field. repeat split; lra.
Qed.
Print Assumptions C17_weights_carry_interval.

(* N-D operators: Kronecker products act as tensor products *)
Theorem C17_kron_is_tensor : forall n1 n2 (A B : mat) (X : nat -> nat -> Q) i1 i2, (i2 < n2)%nat ->
  mv (n1 * n2) (kron n2 A B) (fun r => X (r / n2)%nat (r mod n2)%nat) (i1 * n2 + i2)
  == bigsum (fun j1 => bigsum (fun j2 => A i1 j1 * B i2 j2 * X j1 j2) n2) n1.
Proof. exact kron_is_tensor. Qed.
Print Assumptions C17_kron_is_tensor.

(* conversions are mutually inverse (entries below N) *)
Theorem C17_U2T_inverse : forall N k j, (k < N)%nat -> (j < N)%nat ->
  mmul N U2T T2U k j == mI k j /\ mmul N T2U U2T k j == mI k j.
Proof. exact U2T_inverse. Qed.
Print Assumptions C17_U2T_inverse.

(* p-th derivative = p-th matrix power (what get_differentiation_matrix(p) computes) *)
Theorem C17_cheb_diff_p_correct : forall N c p,
  peq (pderiv_n p (pseries chebT c N)) (pseries chebT (mv N (mpow N DT p) c) N).
Proof. exact cheb_diff_p_correct. Qed.
Print Assumptions C17_cheb_diff_p_correct.

(* sparse ultraspherical operator = conversions applied to the dense Chebyshev operator, every N and order *)
Theorem C17_ultra_matches_dense : forall N p, (1 <= p)%nat ->
  forall k j, (k < N)%nat -> (j < N)%nat -> mmul N (Ubc N 0 p) (mpow N DT p) k j == UD 1 p k j.
Proof. exact ultra_matches_dense. Qed.
Print Assumptions C17_ultra_matches_dense.

(* integration matrix (reference interval): D * S = I on polynomials of degree < N - 1, every N.  Row 0 of S (the value
   at 0, the only row that depends on the interval) meets the zero column of D: nothing is claimed about it *)
Theorem C17_cheb_int_is_right_inverse : forall N k j, (k < N)%nat -> (j + 1 < N)%nat ->
  mmul N DT (ST 1) k j == mI k j.
Proof. exact cheb_int_is_right_inverse. Qed.
Print Assumptions C17_cheb_int_is_right_inverse.

Theorem C17_cheb_int_then_diff : forall N c, (1 <= N)%nat -> c (N - 1)%nat == 0 ->
  peq (pderiv (pseries chebT (mv N (ST 1) c) N)) (pseries chebT c N).
Proof. exact cheb_int_then_diff. Qed.
Print Assumptions C17_cheb_int_then_diff.

(* backward basis changes (the code inverts numerically; the model uses the closed form) *)
Theorem C17_S_inverse : forall N lam k j, (k < N)%nat -> (j < N)%nat -> mmul N (US lam) (USinv lam) k j == mI k j.
Proof. exact US_USinv. Qed.
Print Assumptions C17_S_inverse.

Theorem C17_basis_change_inverse : forall N d lo k j, (k < N)%nat -> (j < N)%nat ->
  mmul N (Ubc N lo d) (Ubc_inv N lo d) k j == mI k j.
Proof.
  intros N d. change (forall lo, meq N (mmul N (Ubc N lo d) (Ubc_inv N lo d)) mI).
  induction d as [|d IH]; intros lo; [apply mmul_I_l|].
  cbn [Ubc_inv]. rewrite Ubc_bottom, mmul_assoc, <- (mmul_assoc N (US lo)), US_USinv, mmul_I_l. apply IH.
Qed.
Print Assumptions C17_basis_change_inverse.

(* ultraspherical operators in the Gegenbauer bases, for the sizes and orders the helper is checked with; they are
   instances of SpectralProofs.ultra_diff_correct, ultra_S_correct, ultra_diff_mapped, which hold for every N,
   p >= 1, lam >= 1 (induction over the Gegenbauer recurrence); lam = 0 (T -> U) is C17_T2U_correct *)
Theorem C17_ultra_diff_correct_upto64 : forall N p c, (N <= 64)%nat -> (p = 1 \/ p = 2 \/ p = 3)%nat ->
  peq (pderiv_n p (pseries chebT c N)) (pseries (geg p) (mv N (UD 1 p) c) N).
Proof. exact ultra_diff_correct_upto64. Qed.
Print Assumptions C17_ultra_diff_correct_upto64.

Theorem C17_ultra_S_correct_upto64 : forall N lam c, (N <= 64)%nat -> (lam = 1 \/ lam = 2)%nat ->
  peq (pseries (geg lam) c N) (pseries (geg (S lam)) (mv N (US lam) c) N).
Proof. exact ultra_S_correct_upto64. Qed.
Print Assumptions C17_ultra_S_correct_upto64.

Theorem C17_ultra_diff_mapped_upto64 : forall N p c fac off, (N <= 64)%nat -> (p = 1 \/ p = 2 \/ p = 3)%nat -> ~ fac == 0 ->
  peq (pderiv_n p (pcomp_aff (/ fac) (- off / fac) (pseries chebT c N)))
      (pcomp_aff (/ fac) (- off / fac) (pseries (geg p) (mv N (UD fac p) c) N)).
Proof. exact ultra_diff_mapped_upto64. Qed.
Print Assumptions C17_ultra_diff_mapped_upto64.

(* Fourier: fftfreq ordering, (i k)^p, integration inverts differentiation off the zero mode *)
Theorem C17_wavenumbers : forall N j, (j < N)%nat ->
  ((wavenum N j - Z.of_nat j) mod Z.of_nat N = 0 /\ - Z.of_nat N <= 2 * wavenum N j < Z.of_nat N)%Z.
Proof. exact wavenum_spec. Qed.
Print Assumptions C17_wavenumbers.

Theorem C17_fourier_diff_power : forall k p, ceq (cpow (0, k) p)
  (match (p mod 4)%nat with 0%nat => (Qpown k p, 0) | 1%nat => (0, Qpown k p) | 2%nat => (- Qpown k p, 0) | _ => (0, - Qpown k p) end).
Proof.
  intros k p. induction p as [|p [I1 I2]]; [split; reflexivity|].
  replace (S p mod 4)%nat with ((p mod 4 + 1) mod 4)%nat by (rewrite Nat.add_mod_idemp_l, Nat.add_1_r by lia; reflexivity).
  pose proof (Nat.mod_upper_bound p 4 ltac:(lia)) as Hlt. cbn [cpow Qpown]. unfold ceq, cmul. cbn [fst snd]. rewrite I1, I2.
  destruct (p mod 4)%nat as [|[|[|[|q]]]]; [| | | |lia]; cbn [fst snd Nat.add Nat.modulo Nat.divmod Nat.sub]; split; ring.
Qed.
Print Assumptions C17_fourier_diff_power.

Theorem C17_fourier_int_inverts_diff : forall k p, ~ k == 0 -> ceq (cmul (cpow (cinv (0, k)) p) (cpow (0, k) p)) (1, 0).
Proof. intros k p Hk. apply cpow_inverse. unfold ceq, cmul, cinv. cbn [fst snd]. split; field; exact Hk. Qed.
Print Assumptions C17_fourier_int_inverts_diff.

(* the evaluated tables compared with the live code are the matrices the theorems speak about *)
Theorem C17_tables_are_model : forall N,
  (forall fac p, meq N (tget (DTp_tab N fac p)) (DTp N fac p)) /\
  (forall lo d, meq N (tget (Ubc_tab N lo d)) (Ubc N lo d)) /\
  (forall lo d, meq N (tget (Ubc_inv_tab N lo d)) (Ubc_inv N lo d)).
Proof. exact tables_are_model. Qed.
Print Assumptions C17_tables_are_model.

(* non-vacuity: T_3 = 4x^3 - 3x, its derivative through D, and C^(2)_2 = 12x^2 - 2, a Gegenbauer polynomial of the _upto64 theorems *)
Example C17_nonvacuous :
  map Qred (chebT 3) = [0; -(3); 0; 4] /\
  map Qred (tabv 4 (mv 4 DT (fun j => if Nat.eqb j 3 then 1 else 0))) = [3; 0; 6; 0] /\
  map Qred (geg 2 2) = [-(2); 0; 12].
Proof. vm_compute. repeat split. Qed.
Print Assumptions C17_nonvacuous.
