(* C06 — property theorems only.  Each is closed by [exact] of a lemma of Proofs/TimeLoopProofs.v, the refutations
   and C06_nonvacuous by evaluating the model, and each is followed by Print Assumptions.

   Model: Model/TimeLoop.v — the time/slot bookkeeping of controller_nonMPI.run (and controller_ParaDiag_nonMPI.run
   with paradiag = true), generic in the number type T (add, sub, ltb, zero, Python's sum(): NO laws) and the value
   type V; the block (pfasst + convergence controllers) is an oracle returning restart flags, u[0]/uend of the
   active steps and the new step sizes.
   `s_pfx st = true` : in every block the active slots were 0..a-1 (computed by the model itself; evaluated by the
                       Coq kernel in every correspondence run of the check).
   `contract dV orc` : the block starts its first step from the value handed in and every later step from the end
                       value of its predecessor (checked on the implementation by the harness oracle). *)
From Coq Require Import List Bool Arith ZArith Lia PrimFloat.
From PySDC Require Import Model.TimeLoop Proofs.TimeLoopProofs.
Import ListNotations.

(* tiling, no law on T: consecutive accepted steps satisfy  start_{n+1} = add start_n dt_n  LITERALLY (hence
   bit-exactly for doubles) — except that start times computed in the first block are  add t0 (sum(dt_0..dt_{p-1}))
   (second alternative of `link`); the first accepted step starts at add t0 (sum []) *)
Theorem C06_tiling_chain : forall T V (add sub : T -> T -> T) ltb zero sumT (dV : V) orc fuel t0 tend tol dts u0 uend st,
  contract dV orc -> run add sub ltb zero sumT dV false orc fuel t0 tend tol dts u0 = Finished uend st -> s_pfx st = true ->
  tiled add zero sumT t0 dts (s_acc st) /\
  (forall x, hd_error (s_acc st) = Some x -> a_start x = add t0 (psum sumT dts 0)).
Proof. exact tiling_chain. Qed.
Print Assumptions C06_tiling_chain.

(* with an associative addition and sum() the left fold (exact arithmetic) the tiling is literal throughout *)
Theorem C06_tiling_exact : forall T V (add sub : T -> T -> T) ltb zero sumT (dV : V) orc,
  (forall a b c, add (add a b) c = add a (add b c)) -> (forall l x, sumT (l ++ [x]) = add (sumT l) x) ->
  forall fuel t0 tend tol dts u0 uend st,
  contract dV orc -> run add sub ltb zero sumT dV false orc fuel t0 tend tol dts u0 = Finished uend st -> s_pfx st = true ->
  adj (fun x y : acc T V => a_start y = add (a_start x) (a_dt x)) (s_acc st).
Proof. exact tiling_exact. Qed.
Print Assumptions C06_tiling_exact.

(* full-strength tiling for doubles is REFUTED by the faithful model: in the first block the start of slot 2,
   t0 + sum([dt, dt]), differs from the end (t0 + dt) + dt of slot 1 (t0 = 0.2, dt = 0.05, 3 slots) *)
Theorem C06_tiling_float_refuted :
  match frun false counting_oracle 20 0x1.999999999999ap-3%float 0.5%float ftol
             [0x1.999999999999ap-5; 0x1.999999999999ap-5; 0x1.999999999999ap-5]%float 0 with
  | Finished _ st =>
      s_pfx st = true /\
      exists x y, nth_error (s_acc st) 1 = Some x /\ nth_error (s_acc st) 2 = Some y /\
                  PrimFloat.eqb (a_start y) (PrimFloat.add (a_start x) (a_dt x)) = false
  | _ => False
  end.
Proof. vm_compute. split; auto. eexists; eexists; repeat split; reflexivity. Qed.
Print Assumptions C06_tiling_float_refuted.

(* chaining: every accepted step starts from the end value of the previous accepted step, the first from the caller's
   value, and the returned value is the end value of the last accepted step *)
Theorem C06_chain : forall T V (add sub : T -> T -> T) ltb zero sumT (dV : V) orc fuel t0 tend tol dts u0 uend st,
  contract dV orc -> run add sub ltb zero sumT dV false orc fuel t0 tend tol dts u0 = Finished uend st -> s_pfx st = true ->
  chainedV (s_acc st) /\
  (forall x, hd_error (s_acc st) = Some x -> a_u0 x = u0) /\
  match lastopt (s_acc st) with Some x => uend = a_uend x | None => uend = u0 end.
Proof. exact chain. Qed.
Print Assumptions C06_chain.

(* no accepted step starts at or beyond Tend - tol (no hypothesis on the oracle, no law on T) *)
Theorem C06_no_start_beyond : forall T V (add sub : T -> T -> T) ltb zero sumT (dV : V) orc fuel t0 tend tol dts u0 uend st,
  run add sub ltb zero sumT dV false orc fuel t0 tend tol dts u0 = Finished uend st ->
  forall a, In a (s_acc st) -> ltb (a_start a) (sub tend tol) = true.
Proof. exact (fun T V add sub ltb zero sumT dV orc fuel t0 tend tol dts u0 uend st =>
         @no_start_beyond T V add sub ltb zero sumT dV false orc fuel t0 tend tol dts u0 uend st eq_refl). Qed.
Print Assumptions C06_no_start_beyond.

(* the run does not stop early: the end of the last accepted step is not before Tend - tol *)
Theorem C06_reaches_Tend : forall T V (add sub : T -> T -> T) ltb zero sumT (dV : V) orc fuel t0 tend tol dts u0 uend st,
  contract dV orc -> run add sub ltb zero sumT dV false orc fuel t0 tend tol dts u0 = Finished uend st -> s_pfx st = true ->
  exists t, nexts add zero sumT t0 dts (s_acc st) t /\ ltb t (sub tend tol) = false.
Proof. exact reaches_Tend. Qed.
Print Assumptions C06_reaches_Tend.

(* exact step count for integer time and a fixed step d, whatever the number P of steps per block: a finished
   run has N accepted steps with  t0 + (N-1) d < Tend - tol <= t0 + N d  (for d > 0: N = ceil((Tend - tol - t0)/d)) *)
Theorem C06_count_exact : forall (P : nat) (d t0 tend tol : Z),
  forall fuel uend st,
  run Z.add Z.sub Z.ltb 0%Z (fold_sum Z.add 0%Z) 0 false counting_oracle fuel t0 tend tol (repeat d P) 0 = Finished uend st ->
  s_pfx st = true ->
  let N := Z.of_nat (length (s_acc st)) in
  (0 < N /\ t0 + (N - 1) * d < tend - tol /\ tend - tol <= t0 + N * d)%Z.
Proof. exact count_exact. Qed.
Print Assumptions C06_count_exact.

(* ... and REFUTED for doubles: t0 = 0, dt = 0.1, Tend = 10 gives 101 steps; the 101st starts at 9.99999999999998 *)
Theorem C06_count_float_refuted :
  match frun false (fixed_oracle [f01]) 200 0%float 10%float ftol [f01] 0 with
  | Finished _ st => length (s_acc st) = 101 /\ s_pfx st = true /\
                     (exists x, lastopt (s_acc st) = Some x /\
                                PrimFloat.ltb (a_start x) (PrimFloat.sub 10%float ftol) = true /\
                                PrimFloat.eqb (a_start x) 0x1.3fffffffffff5p+3%float = true)
  | _ => False
  end.
Proof. vm_compute. repeat split; auto. eexists; repeat split; reflexivity. Qed.
Print Assumptions C06_count_float_refuted.

(* controller_ParaDiag_nonMPI (whole block activated): a step is started beyond Tend *)
Theorem C06_paradiag_start_beyond_refuted :
  match frun true counting_oracle 20 0%float 0.25%float ftol [f01; f01; f01; f01] 0 with
  | Finished _ st => exists x, In x (s_acc st) /\ PrimFloat.ltb (a_start x) 0.25%float = false
  | _ => False
  end.
Proof. vm_compute. eexists; split; [right; right; right; left; reflexivity|reflexivity]. Qed.
Print Assumptions C06_paradiag_start_beyond_refuted.

(* non-vacuity: the counting oracle satisfies the contract, and an integer run (3 slots, d = 2, t0 = 0, Tend - tol = 10)
   finishes with s_pfx = true and 5 accepted steps *)
Theorem C06_contract_satisfiable : forall T, contract 0 (@counting_oracle T).
Proof. exact counting_contract. Qed.
Print Assumptions C06_contract_satisfiable.

Example C06_nonvacuous :
  match run Z.add Z.sub Z.ltb 0%Z (fold_sum Z.add 0%Z) 0 false counting_oracle 20 0%Z 11%Z 1%Z (repeat 2%Z 3) 0 with
  | Finished u st => s_pfx st = true /\ length (s_acc st) = 5 /\ u = 5
  | _ => False
  end.
Proof. vm_compute. auto. Qed.
Print Assumptions C06_nonvacuous.
