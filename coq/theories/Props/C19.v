(* C19 — property theorems only.  Each is closed by [exact], or by a few lines from the lemmas of
   Proofs/RerunProofs.v (the refutations by evaluating the model on a witness), and is followed by Print Assumptions. *)
From Coq Require Import List Bool Arith ZArith Lia PrimFloat.
From PySDC Require Import Model.Rerun Proofs.RerunProofs.
Import ListNotations.

(* (1) split_compose — law-free in the number type (hence valid for IEEE doubles): a fixed-step run
   stopped at a block boundary and continued from the reached time value [tk] and the returned value
   [uk] goes through the same blocks, the same (slot, start, dt) triples and the same chained values as
   the uninterrupted run, PROVIDED (a) both active tests give the same mask before every block of the
   first run and (b) the time list run() builds from tk equals the time list the first run ended with.
   FULL-STRENGTH statement (without (b)):  refuted, see (2). *)
Theorem C19_split_compose_partial :
  forall (T : Type) (add sub : T -> T -> T) (ltb : T -> T -> bool) (zero teneps dflt : T) (U : Type)
         (blk : list (nat * T * T) -> U -> U) (dts : list T)
         f1 f2 t0 Tmid Tend u0 times_k uk tr1 tk tf uf tr2,
    loop T add ltb dflt U blk dts f1 (thr T sub teneps Tmid) (init_times T add zero dts t0) u0 = Some (times_k, uk, tr1) ->
    forallb (mask_agree T ltb U (thr T sub teneps Tmid) (thr T sub teneps Tend)) tr1 = true ->
    init_times T add zero dts tk = times_k ->
    loop T add ltb dflt U blk dts f2 (thr T sub teneps Tend) (init_times T add zero dts tk) uk = Some (tf, uf, tr2) ->
    exists trF, loop T add ltb dflt U blk dts (f1 + f2) (thr T sub teneps Tend) (init_times T add zero dts t0) u0 = Some (tf, uf, trF) /\
                steps_of T U trF = steps_of T U tr1 ++ steps_of T U tr2 /\
                values_of T U trF = values_of T U tr1 ++ values_of T U tr2.
Proof.
  intros. exists (tr1 ++ tr2). split; [eapply split_compose; eauto|].
  unfold steps_of, values_of. rewrite !map_app. auto.
Qed.
Print Assumptions C19_split_compose_partial.

(* (2) the faithful model refutes split composition without premise (b) on IEEE doubles
   (4 slots, dt = 0.1: first block t0 + (dt+dt+dt), later blocks ((t+dt)+dt)+dt) *)
Theorem C19_split_compose_refuted :
  exists (t0 Tmid Tend tk : float) times_k tr1 tf tr2 tF trF,
    floop unit w_blk w_dts 5 (fthr Tmid) (finit w_dts t0) tt = Some (times_k, tt, tr1) /\
    forallb (mask_agree float PrimFloat.ltb unit (fthr Tmid) (fthr Tend)) tr1 = true /\
    nth 0 times_k 0%float = tk /\
    floop unit w_blk w_dts 5 (fthr Tend) (finit w_dts tk) tt = Some (tf, tt, tr2) /\
    floop unit w_blk w_dts 10 (fthr Tend) (finit w_dts t0) tt = Some (tF, tt, trF) /\
    steps_of float unit trF <> steps_of float unit tr1 ++ steps_of float unit tr2.
Proof.
  eexists 0%float, 0x1.999999999999ap-2%float, 0x1.999999999999ap-1%float, _, _, _, _, _, _, _.
  split. vm_compute. reflexivity.
  split. vm_compute. reflexivity.
  split. vm_compute. reflexivity.
  split. vm_compute. reflexivity.
  split. vm_compute. reflexivity.
  intro H.
  apply (f_equal (map (map (fun x : nat * float * float => PrimFloat.ltb (snd (fst x)) 0x1.3333333333334p-1%float)))) in H.
  vm_compute in H. discriminate H.
Qed.
Print Assumptions C19_split_compose_refuted.

(* (3) one time slot: premise (b) is the single equation tk + 0 = tk *)
Theorem C19_split_compose_one_slot :
  forall (T : Type) (add sub : T -> T -> T) (ltb : T -> T -> bool) (zero teneps dflt : T) (U : Type)
         (blk : list (nat * T * T) -> U -> U) (d : T) f1 f2 t0 Tmid Tend u0 times_k uk tr1 tf uf tr2,
    let L := loop T add ltb dflt U blk [d] in
    let it := init_times T add zero [d] in
    let th := thr T sub teneps in
    L f1 (th Tmid) (it t0) u0 = Some (times_k, uk, tr1) ->
    forallb (mask_agree T ltb U (th Tmid) (th Tend)) tr1 = true ->
    let tk := nth 0 times_k dflt in
    add tk zero = tk ->
    L f2 (th Tend) (it tk) uk = Some (tf, uf, tr2) ->
    L (f1 + f2) (th Tend) (it t0) u0 = Some (tf, uf, tr1 ++ tr2).
Proof.
  intros T add sub ltb zero teneps dflt U blk d f1 f2 t0 Tmid Tend u0 times_k uk tr1 tf uf tr2 L it th H HM tk Hz H2.
  eapply split_compose; eauto.
  pose proof (loop_length _ _ _ _ _ _ _ _ _ _ _ _ _ _ H) as HL.
  unfold it, init_times in *. simpl in *.
  destruct times_k as [|x [|y r]]; simpl in HL; try discriminate.
  unfold tk in *. simpl in *. rewrite Hz. reflexivity.
Qed.
Print Assumptions C19_split_compose_one_slot.

(* (4) frame / initialisation: after reset_stats + restart_block the whole controller state depends on
   the previous state only through the listed carried fields (step_rel, hook_rel, buffers, RNG) *)
Theorem C19_run_entry_frame :
  forall (D : Type) slots times u0 (c c' : Ctrl D) (d : Stp D),
    length (c_steps c) = length (c_steps c') ->
    (forall p, p < length (c_steps c) -> step_rel slots p (nth p (c_steps c) d) (nth p (c_steps c') d)) ->
    Forall2 hook_rel (c_hooks c) (c_hooks c') ->
    c_bufs c = c_bufs c' -> c_rng c = c_rng c' ->
    run_entry slots times u0 c = run_entry slots times u0 c'.
Proof. exact run_entry_frame. Qed.
Print Assumptions C19_run_entry_frame.

(* (5) rerun_equal — for ANY body function (no footprint assumption) *)
Theorem C19_rerun_equal :
  forall (D Res : Type) (body : Ctrl D -> Res * Ctrl D) slots times u0 (c c' : Ctrl D) (d : Stp D),
    length (c_steps c) = length (c_steps c') ->
    (forall p, p < length (c_steps c) -> step_rel slots p (nth p (c_steps c) d) (nth p (c_steps c') d)) ->
    Forall2 hook_rel (c_hooks c) (c_hooks c') ->
    c_bufs c = c_bufs c' -> c_rng c = c_rng c' ->
    run1 D Res body slots times u0 c = run1 D Res body slots times u0 c'.
Proof. exact rerun_equal. Qed.
Print Assumptions C19_rerun_equal.

(* (6) same-controller repeat after ANY history of all-slots-active runs equals the run on the
   controller the history started from (e.g. the freshly constructed one), for bodies that do not
   read the dead fields and keep the live carried fields (contract: fixed step, no RNG draw) *)
Theorem C19_rerun_equal_after_history :
  forall (D Res : Type) (body' : Ctrl D -> Res * Ctrl D),
    (forall e d, live_rel D (snd (body' e)) e d) ->
    forall inputs times u0 (c0 : Ctrl D) (d : Stp D),
      fst (run2 D Res body' (seq 0 (length (c_steps c0))) times u0 (history D Res body' c0 inputs)) =
      fst (run2 D Res body' (seq 0 (length (c_steps c0))) times u0 c0).
Proof. exact rerun_equal_after_history. Qed.
Print Assumptions C19_rerun_equal_after_history.

(* (7) the premises of rerun_equal cannot be weakened, two refutations on the faithful model:
   agreement on the carried fields of EVERY step (plus hooks, buffers, RNG) is not enough when a slot is inactive -
   the stale status of the inactive step reaches the body (step_rel asks more of an inactive step);
   and the RNG premise is needed - the sweeper RNG is carried and never re-seeded *)
Theorem C19_rerun_equal_refuted_stale_inactive :
  (forall p, p < 2 -> carried_step (nth p (c_steps ex_fresh2) (fresh_step [])) = carried_step (nth p (c_steps ex_used2) (fresh_step []))) /\
  c_hooks ex_fresh2 = c_hooks ex_used2 /\ c_bufs ex_fresh2 = c_bufs ex_used2 /\ c_rng ex_fresh2 = c_rng ex_used2 /\
  fst (run1 unit val ex_body_last [0] [Some 0%Z; Some 1%Z] tt ex_fresh2) <>
  fst (run1 unit val ex_body_last [0] [Some 0%Z; Some 1%Z] tt ex_used2).
Proof.
  repeat split.
  - intros p Hp. destruct p as [|[|p]]; try lia; reflexivity.
  - vm_compute. discriminate.
Qed.
Print Assumptions C19_rerun_equal_refuted_stale_inactive.

Theorem C19_rerun_equal_refuted_rng :
  let c1 := snd (run2 unit Z ex_body_rng [0; 1] [Some 0%Z; Some 1%Z] tt ex_fresh2) in
  fst (run2 unit Z ex_body_rng [0; 1] [Some 0%Z; Some 1%Z] tt c1) <>
  fst (run2 unit Z ex_body_rng [0; 1] [Some 0%Z; Some 1%Z] tt ex_fresh2).
Proof. vm_compute. discriminate. Qed.
Print Assumptions C19_rerun_equal_refuted_rng.

(* (8) two controllers in one process *)
Theorem C19_two_controllers_independent :
  forall (D Res : Type) (runc : nat -> Global -> Ctrl D -> Res * Ctrl D * Global) (dfl : Ctrl D) i j w,
    i <> j -> global_pure D Res runc i -> global_pure D Res runc j ->
    let '(ri, w1) := run_in runc i dfl w in let '(rj, w2) := run_in runc j dfl w1 in
    let '(rj', w1') := run_in runc j dfl w in let '(ri', w2') := run_in runc i dfl w1' in
    ri = ri' /\ rj = rj' /\ w2 = w2'.
Proof. exact two_controllers_independent. Qed.
Print Assumptions C19_two_controllers_independent.

Theorem C19_two_controllers_refuted_class_counter :
  let w := mkWorld (mkGlobal [] [] 0) [ex_fresh2; ex_fresh2] in
  fst (run_in ex_runc_pickle 1 ex_fresh2 (snd (run_in ex_runc_pickle 0 ex_fresh2 w))) <> fst (run_in ex_runc_pickle 1 ex_fresh2 w).
Proof. vm_compute. discriminate. Qed.
Print Assumptions C19_two_controllers_refuted_class_counter.

(* non-vacuity *)
Example C19_split_compose_nonvacuous :
  let dts := [w_dt; w_dt] in
  exists times_k tr1 tf tr2,
    floop unit w_blk dts 5 (fthr 0x1.999999999999ap-2%float) (finit dts 0%float) tt = Some (times_k, tt, tr1) /\
    forallb (mask_agree float PrimFloat.ltb unit (fthr 0x1.999999999999ap-2%float) (fthr 0x1.999999999999ap-1%float)) tr1 = true /\
    finit dts (nth 0 times_k 0%float) = times_k /\
    floop unit w_blk dts 5 (fthr 0x1.999999999999ap-1%float) (finit dts (nth 0 times_k 0%float)) tt = Some (tf, tt, tr2) /\
    length tr1 = 2 /\ length tr2 = 2.
Proof. exact split_compose_nonvacuous. Qed.
Print Assumptions C19_split_compose_nonvacuous.

Example C19_rerun_after_history_nonvacuous :
  fst (run2 unit _ ex_body_ok [0; 1] [Some 5%Z; Some 6%Z] tt
         (history unit _ ex_body_ok ex_fresh2 [([Some 0%Z; Some 1%Z], tt); ([Some 2%Z; Some 3%Z], tt)])) =
  fst (run2 unit _ ex_body_ok [0; 1] [Some 5%Z; Some 6%Z] tt ex_fresh2).
Proof. exact rerun_after_history_nonvacuous. Qed.
Print Assumptions C19_rerun_after_history_nonvacuous.

(* (9) caller-owned description / controller_params shared between constructions: if what a
   construction leaves in the caller's dicts is equivalent (w.r.t. everything a construction reads) to
   what it found, then a controller built from the same objects after an edit equals the controller
   built from the edited fresh dicts.  The frame condition itself is checked on the real code by the
   harness (deep snapshot of the dicts before/after construction and run; B-after-A vs B-fresh). *)
Theorem C19_shared_description_frame :
  forall (Descr Ctl : Type) (build : Descr -> Ctl * Descr) (eqv : Descr -> Descr -> Prop),
    (forall d d', eqv d d' -> fst (build d) = fst (build d')) ->
    (forall d, eqv (snd (build d)) d) ->
    forall (edit : Descr -> Descr), (forall d d', eqv d d' -> eqv (edit d) (edit d')) ->
    forall d, build_after Descr Ctl build edit d = fst (build (edit d)).
Proof. exact shared_description_frame. Qed.
Print Assumptions C19_shared_description_frame.

Example C19_shared_hook_list_nonvacuous : forall user,
  build_after _ _ build_hooks (fun l => l) user = fst (build_hooks user).
Proof. exact shared_hook_list_nonvacuous. Qed.
Print Assumptions C19_shared_hook_list_nonvacuous.
