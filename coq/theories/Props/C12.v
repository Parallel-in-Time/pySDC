(* C12 — property theorems only.  Each is a lemma of Proofs/SolverContractProofs.v, or a short consequence of
   some proved here, and is followed by Print Assumptions. *)
From Coq Require Import ZArith QArith Qabs List Bool Lia.
From PySDC Require Import Base.Dyadic Model.SolverContract Proofs.SolverContractProofs.
Import ListNotations.
Local Open Scope Q_scope.

(* (1) the certificate checker evaluated by the kernel on every exported (operator, factor, rhs, u)
   is sound: acceptance implies the solver contract  |u_i - factor (A u)_i - rhs_i| <= tol  over Q for
   EVERY unmasked row, for every matrix / vector / factor / tolerance *)
Theorem C12_check_solve_cert_sound : forall A factor rhs u mask atol rtol,
  check_solve_cert A factor rhs u mask atol rtol = true ->
  contract_holds A factor rhs u mask (D2Q (cert_tol A factor rhs u atol rtol)).
Proof. exact check_solve_cert_sound. Qed.
Print Assumptions C12_check_solve_cert_sound.

(* (2) factor = 0: a certified output equals rhs within tol *)
Theorem C12_factor_zero : forall A factor rhs u mask tol,
  contract_holds A factor rhs u mask tol -> D2Q factor == 0 ->
  forall i, (i < length A)%nat -> nth i mask false = true ->
  Qabs (D2Q (vget u i) - D2Q (vget rhs i)) <= tol.
Proof.
  intros A factor rhs u mask tol [_ [_ [_ H]]] Hf i Hi Hm. specialize (H i Hi Hm).
  unfold Qresid in H. rewrite Hf, Qmult_0_l in H. unfold Qminus at 2 in H. rewrite Qplus_0_r in H. exact H.
Qed.
Print Assumptions C12_factor_zero.

(* (3) general linear rows G u = b (boundary / constraint rows, systems with a mass matrix) *)
Theorem C12_check_lin_cert_sound : forall G b u atol rtol,
  check_lin_cert G b u atol rtol = true -> lin_holds G b u (D2Q (lin_tol G b u atol rtol)).
Proof. exact check_lin_cert_sound. Qed.
Print Assumptions C12_check_lin_cert_sound.

(* (4) vector-only residual certificate against the f values returned by the implementation *)
Theorem C12_check_resid_cert_sound : forall factor rhs u f mask tol,
  check_resid_cert factor rhs u f mask tol = true -> resid_holds factor rhs u f mask (D2Q tol).
Proof. exact check_resid_cert_sound. Qed.
Print Assumptions C12_check_resid_cert_sound.

(* (5) residual certificate + "f = A u" certificate  ==>  contract for the operator A *)
Theorem C12_resid_and_apply_give_contract : forall A factor rhs u f mask tr ta,
  resid_holds factor rhs u f mask tr -> lin_holds A f u ta -> length u = length A ->
  contract_holds A factor rhs u mask (tr + Qabs (D2Q factor) * ta).
Proof.
  intros A factor rhs u f mask tr ta [R1 [R2 [R3 R]]] [L1 L] Hn. repeat split; try lia.
  intros i Hi Hm. rewrite <- Hn in Hi. specialize (R i Hi Hm). rewrite Hn in Hi. specialize (L i Hi). unfold Qresid.
  (* u_i - c (A u)_i - b_i = (u_i - c f_i - b_i) - c ((A u)_i - f_i) *)
  setoid_replace (D2Q (vget u i) - D2Q factor * Qrow_dot (nth i A []) u - D2Q (vget rhs i))
    with ((D2Q (vget u i) - D2Q factor * D2Q (vget f i) - D2Q (vget rhs i))
          + - D2Q factor * (Qrow_dot (nth i A []) u - D2Q (vget f i))) by ring.
  eapply Qle_trans; [apply Qabs_triangle|]. rewrite Qabs_Qmult, Qabs_opp.
  apply Qplus_le_compat; [exact R|]. apply Qmult_le_l_weak; [apply Qabs_nonneg | exact L].
Qed.
Print Assumptions C12_resid_and_apply_give_contract.

(* (6) split certificate: the pieces sum to the full right-hand side entry by entry *)
Theorem C12_split_sum : forall f1 f2 ffull tol,
  check_split_cert f1 f2 ffull tol = true ->
  length f1 = length ffull /\ length f2 = length ffull /\
  forall i, (i < length ffull)%nat ->
    Qabs (D2Q (vget f1 i) + D2Q (vget f2 i) - D2Q (vget ffull i)) <= D2Q tol.
Proof. exact check_split_cert_sound. Qed.
Print Assumptions C12_split_sum.

(* (7) uniqueness: an approximate-inverse certificate B (||B G - I|| <= delta < 1, ||B|| <= beta)
   pins any two vectors satisfying G x = b within tol to  ||u - v|| (1 - delta) <= beta * 2 tol *)
Theorem C12_contract_unique : forall G B delta beta b u v tol,
  check_inverse_cert G B delta beta = true ->
  dense_holds G b u tol -> dense_holds G b v tol ->
  D2Q (vdist u v) * (1 - D2Q delta) <= D2Q beta * (2 * tol) /\
  forall i, (i < length G)%nat -> Qabs (D2Q (nth i u d0) - D2Q (nth i v d0)) <= D2Q (vdist u v).
Proof. exact contract_unique. Qed.
Print Assumptions C12_contract_unique.

(* (8) ... and for two outputs accepted by the sparse checker, with G = densify (I - factor A) *)
Theorem C12_solve_cert_unique : forall A factor rhs u v mask atol rtol atol' rtol' B delta beta tol,
  check_solve_cert A factor rhs u mask atol rtol = true ->
  check_solve_cert A factor rhs v mask atol' rtol' = true ->
  cols_below (length A) A = true -> forallb (fun m => m) mask = true ->
  check_inverse_cert (densify factor A) B delta beta = true ->
  D2Q (cert_tol A factor rhs u atol rtol) <= tol ->
  D2Q (cert_tol A factor rhs v atol' rtol') <= tol -> 0 <= tol ->
  D2Q (vdist u v) * (1 - D2Q delta) <= D2Q beta * (2 * tol) /\
  forall i, (i < length A)%nat -> Qabs (D2Q (nth i u d0) - D2Q (nth i v d0)) <= D2Q (vdist u v).
Proof. exact solve_cert_unique. Qed.
Print Assumptions C12_solve_cert_unique.

(* non-vacuity: A = [[-2,1],[1,-2]], factor = 1/2, u = (1,1), rhs = (3/2,3/2) passes with zero
   tolerance; B = [[17/32,1/8],[1/8,17/32]] certifies the inverse with delta = 1/64. With u = v and tol = 0 these are
   the hypotheses of (8), so they can be met together. *)
Example C12_nonvacuous :
  let A := [[(0%nat, Dy (-2) 0); (1%nat, Dy 1 0)]; [(0%nat, Dy 1 0); (1%nat, Dy (-2) 0)]] in
  let f := Dy 1 (-1) in
  check_solve_cert A f [Dy 3 (-1); Dy 3 (-1)] [Dy 1 0; Dy 1 0] [true; true] d0 d0 = true /\
  check_inverse_cert (densify f A) [[Dy 17 (-5); Dy 1 (-3)]; [Dy 1 (-3); Dy 17 (-5)]] (Dy 1 (-6)) (Dy 21 (-5)) = true /\
  cols_below 2 A = true.
Proof. vm_compute. repeat split; reflexivity. Qed.
Print Assumptions C12_nonvacuous.
