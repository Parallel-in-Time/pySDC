(* C03 — the property theorems.  The facts about check_convergence and the prefix property of `chain` are proved here
   (from chain_seed of Proofs/StoppingProofs.v), the iteration bound in Proofs/StoppingProofs.v, the residual identity in
   Proofs/SweepProofs.v. *)
From Coq Require Import List Arith Bool Lia Ring.
From PySDC Require Import Model.Sweep Model.Stopping Proofs.SweepProofs Proofs.StoppingProofs.
Import ListNotations.

(* (1) the residual vector compute_residual builds IS the collocation defect
       u0 + dt*Q*F(U) + tau - U   evaluated on the node values the level holds — any commutative
       ring, any number of right-hand-side parts, any M, with and without tau (the theorem C02 exports as
       C02_residual_is_defect). *)
Section C03_residual.
  Context {K : Type} (kO kI : K) (kadd kmul ksub : K -> K -> K) (kopp : K -> K).
  Hypothesis Rth : ring_theory kO kI kadd kmul ksub kopp (@eq K).
  Context {X : Type}.
  Variable M : nat. Variable dt : K. Variable Q : nat -> nat -> K.
  Theorem C03_residual_is_defect : forall np (u : nat -> X -> K) f tau m x,
    residual_vec kO kadd kmul ksub M dt Q np u f tau m x
    = ksub (kadd (kadd (u 0 x) (kmul dt (sumf kO kadd (fun j => kmul (Q m j) (ftot kO kadd np (f j) x)) 1 M)))
                 (tauval kO tau m x)) (u m x).
  Proof. exact (residual_is_defect kO kI kadd kmul ksub kopp Rth M dt Q). Qed.
End C03_residual.
Print Assumptions C03_residual_is_defect.

(* (2) a step is declared finished only if the residual is within tolerance (after at least one
       sweep OR with a positive sweep counter — see the refutation below), or the budget is
       exhausted, or the error tolerance is hit, or a controller forces it; and never while
       continuation is forced *)
Theorem C03_done_sound : forall maxiter iter sweep i,
  conv maxiter iter sweep i = true ->
  fcont i = false /\
  ((res_ok i = true /\ (0 < iter \/ 0 < sweep)) \/ maxiter <= iter \/ e_ok i = true \/ fdone i = true).
Proof.
  intros maxiter iter sweep i. unfold conv. intros H. apply andb_prop in H as [H1 H2]. apply negb_true_iff in H2.
  split; [exact H2|].
  rewrite !orb_true_iff, andb_true_iff, orb_true_iff, Nat.leb_le, !Nat.ltb_lt in H1. tauto.
Qed.
Print Assumptions C03_done_sound.

Theorem C03_force_continue_wins : forall maxiter iter sweep i, fcont i = true -> conv maxiter iter sweep i = false.
Proof. intros maxiter iter sweep i. unfold conv. intros ->. apply andb_false_r. Qed.
Print Assumptions C03_force_continue_wins.

(* (3) the iteration counter never exceeds the budget unless continuation is forced: for every
       block size, every coupling (all_to_done or not) and EVERY history of per-step inputs *)
Theorem C03_iter_le_maxiter : forall maxiter sweep atd rounds k nrun,
  k <= maxiter ->
  (forall ins i, In ins rounds -> In i ins -> fcont i = false) ->
  forall n, In (Some n) (run_block maxiter sweep atd k nrun rounds) -> n <= maxiter.
Proof. exact iter_le_maxiter. Qed.
Print Assumptions C03_iter_le_maxiter.

(* (4) steps finish in slot order: done flags of a round form a prefix *)
Theorem C03_done_prefix : forall cs p i j, i <= j ->
  nth j (chain p cs) false = true -> nth i (chain p cs) false = true.
Proof.
  induction cs as [|c cs IH]; intros p i j Hij H; cbn [chain] in *.
  - destruct j; discriminate H.
  - destruct i as [|i], j as [|j]; cbn [nth] in *;
      [exact H | exact (chain_seed _ _ _ H) | lia | apply (IH _ i j); [lia | exact H]].
Qed.
Print Assumptions C03_done_prefix.

(* (5) REFUTED clause "after at least one sweep": restart_block sets the sweep counter to 1, so the
       guard (iter > 0 or sweep > 0) is vacuous; a residual within tolerance at iteration 0 finishes
       the step before any sweep.  Full-strength statement that FAILS for the faithful model:
          forall i, conv maxiter 0 1 i = true -> maxiter = 0 \/ e_ok i = true \/ fdone i = true. *)
Theorem C03_sweep_guard_vacuous_refuted :
  exists maxiter i, conv maxiter 0 1 i = true /\ 0 < maxiter /\ e_ok i = false /\ fdone i = false.
Proof.
  exists 5, {| res_ok := true; e_ok := false; fdone := false; fcont := false |}.
  repeat split; auto with arith.
Qed.
Print Assumptions C03_sweep_guard_vacuous_refuted.

Theorem C03_guard_vacuous_general : forall maxiter sweep i,
  0 < sweep -> res_ok i = true -> fcont i = false -> conv maxiter 0 sweep i = true.
Proof.
  intros maxiter sweep i. unfold conv. intros Hs -> ->. apply Nat.ltb_lt in Hs. rewrite Hs. cbn.
  rewrite !orb_true_r. reflexivity.
Qed.
Print Assumptions C03_guard_vacuous_general.

(* non-vacuity: a 3-step block, maxiter 2, nobody converges: all finish with exactly 2 iterations *)
Example C03_nonvacuous :
  let no := {| res_ok := false; e_ok := false; fdone := false; fcont := false |} in
  run_block 2 1 false 0 3 [[no; no; no]; [no; no; no]; [no; no; no]] = [Some 2; Some 2; Some 2].
Proof. vm_compute. reflexivity. Qed.
Print Assumptions C03_nonvacuous.
