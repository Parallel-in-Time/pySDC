(* C07 — the property theorems, each followed by Print Assumptions; they are read off the block invariant and the
   lemmas of Proofs/ControllerProofs.v.

   Model: Model/Controller.v (one block of controller_nonMPI.pfasst for n steps, `nlev c` levels, any
   nsweeps / maxiter / predictor / coupling mode; the numerical layer is the oracle o = (conv, fdone, fcont)).
   `reach c o n s`  : s is a state in which run() calls pfasst (init_block, then pfasst while not all done).
   `wf_cfg c`       : 1 <= nlev, (nlev = 1 -> nsweeps[0] >= 1), (nlev > 1 -> predict_type in {None, fine_only,
                      pfasst_burnin}).
   `term_bound c o B`: from iteration B on the convergence test of it_check succeeds for every step, whatever
                      force_done is (for instance maxiter <= B and no force_continue: C07_term_bound_maxiter). *)
From Coq Require Import List Bool Arith Lia.
From PySDC Require Import Model.Controller Proofs.ControllerProofs.
Import ListNotations.

(* no call of pfasst raises: neither the stage ControllerError ("not all stages are equal" / unknown stage),
   nor CommunicationError (tag mismatch), nor UnlockError / AssertionError (locked level), nor IndexError *)
Theorem C07_pfasst_never_raises : forall c o n s,
  wf_cfg c -> 0 < n -> reach c o n s -> all_done (ms s) = false -> exists s', pfasst c o s = Ok s'.
Proof. exact pfasst_never_raises. Qed.
Print Assumptions C07_pfasst_never_raises.

Theorem C07_run_never_raises : forall c o n fuel, wf_cfg c -> 0 < n ->
  forall e s, run_model c o n fuel <> Raised e s.
Proof. intros c o n fuel WF Hn e s E. pose proof (@run_model_reach c o n fuel WF Hn) as H. rewrite E in H; auto. Qed.
Print Assumptions C07_run_never_raises.

(* lockstep: all running steps are in the same stage; the literal test of pfasst passes *)
Theorem C07_lockstep : forall c o n s, wf_cfg c -> 0 < n -> reach c o n s ->
  forall i j, i < n -> j < n ->
    st_stage (nth i (ms s) dummy_step) <> DONE -> st_stage (nth j (ms s) dummy_step) <> DONE ->
    st_stage (nth i (ms s) dummy_step) = st_stage (nth j (ms s) dummy_step).
Proof. exact lockstep. Qed.
Print Assumptions C07_lockstep.

Theorem C07_lockstep_test : forall c o n s, wf_cfg c -> 0 < n -> reach c o n s -> all_done (ms s) = false ->
  let stages := map (fun i => st_stage (nth i (ms s) dummy_step)) (running (ms s)) in
  all_same stages = true /\ stages <> [].
Proof.
  intros c o n s WF Hn R H. destruct (reach_Inv WF Hn R) as (d & k & sg & I).
  destruct (stages_inv I (Inv_running I H)) as (Ha & r & Hr). simpl. split; [exact Ha|rewrite Hr; discriminate].
Qed.
Print Assumptions C07_lockstep_test.

(* steps finish in time order *)
Theorem C07_done_prefix : forall c o n s, wf_cfg c -> 0 < n -> reach c o n s ->
  forall i j, i <= j -> j < n ->
    st_done (nth j (ms s) dummy_step) = true -> st_done (nth i (ms s) dummy_step) = true.
Proof. exact done_prefix. Qed.
Print Assumptions C07_done_prefix.

Theorem C07_done_iff_stage_DONE : forall c o n s, wf_cfg c -> 0 < n -> reach c o n s ->
  forall i, i < n -> (st_done (nth i (ms s) dummy_step) = true <-> st_stage (nth i (ms s) dummy_step) = DONE).
Proof.
  intros c o n s WF Hn R i Hi. destruct (reach_Inv WF Hn R) as (d & k & sg & I). pose proof (inv_sg I).
  destruct (Inv_view I Hi) as [(_ & X & Y)|(_ & X & Y)]; simpl in X, Y; rewrite X, Y; split; congruence.
Qed.
Print Assumptions C07_done_iff_stage_DONE.

(* a finished step is never changed again and no later event carries its slot — for EVERY state and
   configuration, whether or not pfasst raises *)
Theorem C07_done_frame : forall c o s i,
  st_stage (nth i (ms s) dummy_step) = DONE ->
  let s' := res_state (pfasst c o s) in
  nth_error (ms s') i = nth_error (ms s) i /\
  exists ext, tr s' = tr s ++ ext /\ Forall (fun e => fst e <> i) ext.
Proof. exact done_frame. Qed.
Print Assumptions C07_done_frame.

(* the receives recorded in the trace of a reachable state found exactly the (level, iter, sender) tag they
   expected.  The model records a mismatching receive only together with CommunicationError, which ends the run, so
   this needs no invariant; that no receive fails is part of C07_pfasst_never_raises *)
Theorem C07_tags_match : forall c o n s, reach c o n s ->
  forall slot l t f, In (slot, LRecv l t f) (tr s) -> f = Some t.
Proof. exact tags_match. Qed.
Print Assumptions C07_tags_match.

(* termination with an explicit fuel bound: at most B+1 check rounds, 2 + 5(B+1) calls of pfasst *)
Theorem C07_block_terminates : forall c o n B, wf_cfg c -> 0 < n -> term_bound c o B ->
  forall fuel, fuel_for B <= fuel ->
  exists s, run_model c o n fuel = Finished s /\ reach c o n s /\
    forall i, i < n -> let st := nth i (ms s) dummy_step in
      st_stage st = DONE /\ st_done st = true /\ st_iter st <= B.
Proof. exact block_terminates. Qed.
Print Assumptions C07_block_terminates.

Theorem C07_term_bound_maxiter : forall c o B,
  maxiter c <= B -> (forall i k, B <= k -> fcont o i k = false) -> term_bound c o B.
Proof.
  intros c o B Hm Hf i k fd Hk. unfold conv_expr. rewrite Hf by auto.
  replace (maxiter c <=? k) with true by (symmetry; apply Nat.leb_le; lia). auto.
Qed.
Print Assumptions C07_term_bound_maxiter.

(* per slot: pre_step (pre_predict post_predict)? (pre_iteration (pre_sweep post_sweep)+ post_iteration)* post_step *)
Theorem C07_callback_grammar : forall c o n, wf_cfg c -> 0 < n ->
  forall fuel s, run_model c o n fuel = Finished s -> forall i, i < n -> grammar (hproj i (tr s)).
Proof. exact callback_grammar. Qed.
Print Assumptions C07_callback_grammar.

Theorem C07_all_to_done_equal_niter : forall c o n, wf_cfg c -> 0 < n -> all_to_done c = true ->
  forall fuel s, run_model c o n fuel = Finished s ->
  forall i j, i < n -> j < n -> st_iter (nth i (ms s) dummy_step) = st_iter (nth j (ms s) dummy_step).
Proof. exact all_to_done_equal_niter. Qed.
Print Assumptions C07_all_to_done_equal_niter.

(* non-vacuity: a 3-step, 2-level PFASST block with burn-in in which the LAST step converges first
   finishes, with iteration counts 2,2,2 ... and the hypotheses wf_cfg / term_bound hold *)
Definition ex_cfg := mkCfg 2 3 [2; 1] PBurnin true false.
Definition ex_orc := mkOracle (fun slot it => (slot =? 2) || (2 <=? it)) (fun _ _ => false) (fun _ _ => false).
Example C07_nonvacuous :
  wf_cfg ex_cfg /\ term_bound ex_cfg ex_orc 3 /\
  match run_model ex_cfg ex_orc 3 (fuel_for 3) with
  | Finished s => map st_iter (ms s) = [2; 2; 2] /\ length (tr s) = 207
  | _ => False
  end.
Proof.
  split; [|split].
  - unfold wf_cfg, ptype_ok; simpl. split; [lia|]. split; [intros; lia|]. intros _. right; right; reflexivity.
  - apply C07_term_bound_maxiter; simpl; auto.
  - vm_compute. split; reflexivity.
Qed.
Print Assumptions C07_nonvacuous.
