(* C09 — restarts and step-size control: property theorems only, each followed by Print Assumptions.
   The longer proofs are lemmas of Proofs/ConvCtrlProofs.v; the short ones are given here, from the general
   facts proved there (flag of step k after a pass, counter of slot k, value spread to slot k, trace of a run).
   The model (Model/ConvCtrl.v) is generic in the number type [T] with operations [N : num T]; the same
   functions are evaluated over PrimFloat against the real controller on every run of the check. *)
From Coq Require Import ZArith QArith List Bool Arith Lia ZifyBool Reals.
From PySDC Require Import Model.ConvCtrl Proofs.ConvCtrlProofs.
Import ListNotations.
Local Open Scope nat_scope.

(* ---------------------------------------------------------------- restart semantics *)
(* (1a) if step j is the first step of a block whose restart flag is set: the steps before j are kept,
   the next block starts at time[j] from the value levels[0].u[0] of step j.
   The first two conjuncts are facts about first_true alone, restart_at and the token hold by unfolding
   next_block; the content is the last conjunct (the time update leaves slot 0 alone).  The default in [nth i _ true]
   is never reached (i < j < length): any default would do. *)
Theorem C09_restart_semantics : forall T (N : num T) c size g ss u0s uends j,
  first_true (map (@s_restart T) ss) = Some j ->
  let bo := next_block N c size g ss u0s uends in
  (forall i, i < j -> nth i (map (@s_restart T) ss) true = false) /\
  nth j (map (@s_restart T) ss) false = true /\
  bo_restart_at bo = j /\
  bo_token bo = nth j u0s (-1)%Z /\
  (0 < length (g_times g) -> nth 0 (g_times (bo_state bo)) (n0 N) = nth j (g_times g) (n0 N)).
Proof. exact (@next_block_restart). Qed.
Print Assumptions C09_restart_semantics.

(* (1b) no flag set: the whole block is kept, the next block starts at the end of the last step from its uend *)
Theorem C09_accept_semantics : forall T (N : num T) c size g ss u0s uends,
  first_true (map (@s_restart T) ss) = None ->
  let bo := next_block N c size g ss u0s uends in
  (forall s, In s ss -> s_restart s = false) /\
  bo_restart_at bo = size /\
  bo_token bo = nth (size - 1) uends (-1)%Z /\
  (0 < length (g_times g) ->
   nth 0 (g_times (bo_state bo)) (n0 N) =
   nadd N (nth (size - 1) (g_times g) (n0 N)) (nth (size - 1) (g_dts g) (n0 N))).
Proof. exact (@next_block_accept). Qed.
Print Assumptions C09_accept_semantics.

(* (1c) one it_check, for ANY call order in which BasicRestarting comes last among the modelled
   controllers: the flags after the pass are the propagated own requests *)
Theorem C09_it_pass_spec : forall T (N : num T) c pre final r0 riars dts injs ss,
  order_ok c pre ->
  it_pass N c final (r0 :: riars) dts injs ss =
  let os := owns N c final pre (r0 :: riars) dts injs ss in
  let qs := map (@s_restart T) os in
  let bm := c_max_restarts c <=? r0 in
  if bm && hd false qs && c_crash c then None
  else Some (if c_rffs c && negb bm then map (set_restart (or_all false qs)) (set_flags (prop_flags false bm qs) os)
             else set_flags (prop_flags false bm qs) os).
Proof. exact (@it_pass_spec). Qed.
Print Assumptions C09_it_pass_spec.

(* (1d) Gauss-Seidel mode: a restarted step drags every later step of the block along *)
Theorem C09_flags_upward_closed : forall T (N : num T) c pre final riars dts injs ss ss' n i j,
  order_ok c pre -> c_rffs c = false ->
  length riars = n -> length dts = n -> length injs = n -> length ss = n ->
  it_pass N c final riars dts injs ss = Some ss' ->
  i <= j -> j < n ->
  nth i (map (@s_restart T) ss') false = true -> nth j (map (@s_restart T) ss') false = true.
Proof.
  intros T N c pre final riars dts injs ss ss' n i j Ho Hrf H1 H2 H3 H4 H Hij Hj.
  destruct (it_pass_flags T N c pre final riars dts injs ss ss' Ho H) as [_ Hfl].
  rewrite map_length, (owns_length T N c final pre riars dts injs ss n H1 H2 H3 H4) in Hfl.
  rewrite !Hfl, Hrf by lia.
  destruct (negb _); [|discriminate]. apply existsb_firstn_mono. lia.
Qed.
Print Assumptions C09_flags_upward_closed.

(* (1e) restart_from_first_step mode: all or nothing *)
Theorem C09_flags_all_equal : forall T (N : num T) c pre final riars dts injs ss ss' n i j,
  order_ok c pre -> c_rffs c = true ->
  length riars = n -> length dts = n -> length injs = n -> length ss = n ->
  it_pass N c final riars dts injs ss = Some ss' ->
  i < n -> j < n ->
  nth i (map (@s_restart T) ss') false = nth j (map (@s_restart T) ss') false.
Proof.
  intros T N c pre final riars dts injs ss ss' n i j Ho Hrf H1 H2 H3 H4 H Hi Hj.
  destruct (it_pass_flags T N c pre final riars dts injs ss ss' Ho H) as [_ Hfl].
  rewrite map_length, (owns_length T N c final pre riars dts injs ss n H1 H2 H3 H4) in Hfl.
  rewrite !Hfl, Hrf by assumption. reflexivity.
Qed.
Print Assumptions C09_flags_all_equal.

(* (1f) restart semantics along the trace of a whole run: for every two consecutive block attempts,
   the later one starts at the time of the first restarted step of the earlier one and from that step's
   u[0] (or, if nothing was restarted, at the end of the last step from its uend) *)
Theorem C09_run_restart_semantics : forall T (N : num T) c pre t0 np script trs o k,
  order_ok c pre -> script_ok np script ->
  run N c t0 np script = (trs, o) -> S k < length trs ->
  let b := nth k trs bt0 in
  let b' := nth (S k) trs bt0 in
  let a := nth k script (att0 T) in
  let n := length (bt_post b) in
  match first_true (map (@s_restart T) (bt_post b)) with
  | Some j =>
      (forall i, i < j -> nth i (map (@s_restart T) (bt_post b)) true = false) /\
      nth 0 (g_times (bt_pre b')) (n0 N) = nth j (g_times (bt_pre b)) (n0 N) /\
      bt_next b = nth j (a_u0s a) (-1)%Z
  | None =>
      nth 0 (g_times (bt_pre b')) (n0 N) =
        nadd N (nth (n - 1) (g_times (bt_pre b)) (n0 N)) (nth (n - 1) (g_dts (bt_pre b)) (n0 N)) /\
      bt_next b = nth (n - 1) (a_uends a) (-1)%Z
  end.
Proof.
  intros T N c pre t0 np script trs o k Ho Hsc Hrun.
  destruct (run_trace T N c pre t0 np script trs o Ho Hsc Hrun) as (size & g & H).
  exact (blocks_trace_restart_semantics T N c size g script trs k H).
Qed.
Print Assumptions C09_run_restart_semantics.

(* (1g) the steps of the next block are contiguous in time *)
Theorem C09_block_times_contiguous : forall T (N : num T) size dts times i,
  size <= length times -> 1 <= i -> i < size ->
  nth i (times_update N size dts times) (n0 N) =
  nadd N (nth (i - 1) (times_update N size dts times) (n0 N)) (nth (i - 1) dts (n0 N)).
Proof.
  intros T N size dts times i Hl Hi1 Hi. unfold times_update.
  (* entry i is written by the call for step i, entry i - 1 is not written from then on *)
  rewrite !(loop_last _ _ (fun i => i) (time_step_other T N dts) 1 (size - 1) (i - 1)) by lia.
  replace (1 + (i - 1)) with i by lia.
  rewrite time_step_same, time_step_other by (rewrite ?(loop_length _ _ (time_step_length T N dts)); lia).
  reflexivity.
Qed.
Print Assumptions C09_block_times_contiguous.

(* ---------------------------------------------------------------- retry counter, bound, progress *)
(* (2a) the counter of the first slot after the per-step calls of prepare_next_block, for EVERY flag
   pattern — the calls alias (each reads counters earlier calls overwrote), this is what comes out *)
Theorem C09_counter_first_slot : forall size flags riars,
  0 < size -> length flags = size -> size <= length riars ->
  nth 0 (riar_update size flags riars) 0 =
  match first_true flags with
  | None => 0
  | Some 0 => nth 0 riars 0 + 1
  | Some (S _) => 1
  end.
Proof. exact (@riar_update_head). Qed.
Print Assumptions C09_counter_first_slot.

(* (2b) budget exhausted (counter of the first step >= max_restarts): nothing is restarted ... *)
Theorem C09_budget_exhausted : forall T (N : num T) c pre final r0 riars dts injs ss ss',
  order_ok c pre -> c_max_restarts c <= r0 ->
  it_pass N c final (r0 :: riars) dts injs ss = Some ss' ->
  forall s, In s ss' -> s_restart s = false.
Proof. exact (@it_pass_exhausted). Qed.
Print Assumptions C09_budget_exhausted.

(* (2c) ... and ConvergenceError is raised exactly when the budget is exhausted, crash_after_max_restarts is
   on and the first step asks again *)
Theorem C09_raise_iff : forall T (N : num T) c pre final r0 riars dts injs ss,
  order_ok c pre ->
  (it_pass N c final (r0 :: riars) dts injs ss = None <->
   c_max_restarts c <= r0 /\ c_crash c = true /\
   hd false (map (@s_restart T) (owns N c final pre (r0 :: riars) dts injs ss)) = true).
Proof. exact (@it_pass_raise_iff). Qed.
Print Assumptions C09_raise_iff.

(* (2d) retry bound: in the trace of ANY run, under ANY fault script, a streak of consecutive block
   attempts that are restarted from their first step has at most max_restarts members *)
Theorem C09_retry_bound : forall T (N : num T) c pre t0 np script trs o k n,
  order_ok c pre -> script_ok np script ->
  run N c t0 np script = (trs, o) ->
  0 < n -> k + n <= length trs -> (forall i, i < n -> restarted_first (nth (k + i) trs bt0)) ->
  n <= c_max_restarts c.
Proof.
  intros T N c pre t0 np script trs o k n Ho Hsc Hrun.
  destruct (run_trace T N c pre t0 np script trs o Ho Hsc Hrun) as (size & g & H).
  exact (retry_bound T N c pre size g script trs k n Ho H).
Qed.
Print Assumptions C09_retry_bound.

(* (2e) progress: among any max_restarts + 1 consecutive block attempts of a run one is not restarted
   from its first step: it keeps >= 1 step (C09_accepted_pos) or it is the attempt that raised *)
Theorem C09_run_progress : forall T (N : num T) c pre t0 np script trs o k,
  order_ok c pre -> script_ok np script ->
  run N c t0 np script = (trs, o) ->
  k + (c_max_restarts c + 1) <= length trs ->
  exists i, i < c_max_restarts c + 1 /\ ~ restarted_first (nth (k + i) trs bt0).
Proof. exact (@run_progress). Qed.
Print Assumptions C09_run_progress.

Theorem C09_accepted_pos : forall T (bt : block_trace T),
  bt_post bt <> [] -> ~ restarted_first bt -> 0 < accepted bt.
Proof.
  intros T bt. unfold accepted, restarted_first. intros Hne Hnr.
  destruct (first_true (map (@s_restart T) (bt_post bt))) as [[|j]|]; try lia; try congruence.
  destruct (bt_post bt); [congruence | simpl; lia].
Qed.
Print Assumptions C09_accepted_pos.

(* (2f) the other counters after a restart from slot j: the step that moves from slot j+k to slot k >= 1
   carries its own counter plus one (only the step moving to slot 0 is reset to 1, see C09_counter_first_slot) *)
Theorem C09_counter_shifted : forall size flags riars j k,
  length flags = size -> size <= length riars ->
  first_true flags = Some j -> 1 <= k -> j + k < size -> nth (j + k) flags false = true ->
  nth k (riar_update size flags riars) 0 = nth (j + k) riars 0 + 1.
Proof.
  intros size flags riars j k Hf Hr E Hk Hjk Hfl.
  assert (Hrf : rfrom size flags = j) by (unfold rfrom; rewrite E; reflexivity).
  rewrite riar_update_nth by lia. rewrite Hrf, Hfl.
  replace (j + k <? size) with true by lia. replace (k =? 0) with false by lia. reflexivity.
Qed.
Print Assumptions C09_counter_shifted.

(* the aliasing of the per-step counter updates, on a concrete block (documented quirk; C09_counter_first_slot
   shows that the counter that matters, the one of the first slot, comes out right all the same) *)
Example C09_counter_aliasing : riar_update 3 [false; true; true] [0; 2; 5] = [1; 6; 5].
Proof. exact counter_aliasing. Qed.
Print Assumptions C09_counter_aliasing.

(* ---------------------------------------------------------------- error-based step-size control *)
(* (3a) proposal order at iteration maxiter, in the call order -60 / -50 / 91 / 92: the step asks for a
   restart iff a request was injected or e_tol <= err, and dt_new is
   abs_limit (slope_limit (beta * dt * pw)) — formula, then slope limiter, then absolute limiter *)
Theorem C09_proposal_order : forall T (N : num T) c dt req e pw,
  own N c true dt (Inj req e pw None) canonical_pre (sstate0 T) =
  let r := req || nleb N (c_e_tol c) e in
  SState r (Some (abs_limit N c (slope_limit N c dt r (optimal_dt N c dt pw)))) (Some e).
Proof. reflexivity. Qed.
Print Assumptions C09_proposal_order.

(* (3b) restart iff: step k of a fresh block is restarted exactly when some step j <= k has e_tol <= err_j *)
Theorem C09_restart_iff : forall T (N : num T) c r0 riars dts injs n k,
  order_ok c canonical_pre -> r0 < c_max_restarts c -> c_rffs c = false ->
  length (r0 :: riars) = n -> length dts = n -> length injs = n -> k < n ->
  (forall i, In i injs -> i_req i = false) ->
  exists ss', it_pass N c true (r0 :: riars) dts injs (repeat (sstate0 T) n) = Some ss' /\
    nth k (map (@s_restart T) ss') false =
    existsb (fun i => nleb N (c_e_tol c) (i_err i)) (firstn (S k) injs).
Proof. exact (@restart_iff). Qed.
Print Assumptions C09_restart_iff.

(* (3c) every step kept at iteration maxiter while the budget is not exhausted has (e_tol <= err) = false *)
Theorem C09_accepted_error_below_tol : forall T (N : num T) c r0 riars dts injs ss ss' n k di,
  order_ok c canonical_pre -> r0 < c_max_restarts c ->
  length (r0 :: riars) = n -> length dts = n -> length injs = n -> length ss = n -> k < n ->
  it_pass N c true (r0 :: riars) dts injs ss = Some ss' ->
  nth k (map (@s_restart T) ss') false = false ->
  nleb N (c_e_tol c) (i_err (nth k injs di)) = false.
Proof. exact (@accepted_error_below_tol). Qed.
Print Assumptions C09_accepted_error_below_tol.

(* (3d) clip_in_range, law-free: only "a < b gives a <= b" and "not a < b gives b <= a" are asked of the order;
   with dt_max = None only the lower bound remains (abs_limit_lower in Proofs/ConvCtrlProofs.v) *)
Theorem C09_clip_in_range : forall T (N : num T) (le : T -> T -> Prop),
  (forall a b, nltb N a b = true -> le a b) -> (forall a b, nltb N a b = false -> le b a) ->
  forall c d m, c_dt_max c = Some m -> le (c_dt_min c) m ->
  le (c_dt_min c) (abs_limit N c d) /\ le (abs_limit N c d) m.
Proof.
  intros T N le lt_le nlt_ge c d m Hm Hlm. unfold abs_limit. rewrite Hm.
  pose proof (le_refl_free T N le lt_le nlt_ge) as Hrefl.
  destruct (nltb N d (c_dt_min c)) eqn:E1; [split; [apply Hrefl | exact Hlm]|].
  destruct (nltb N m d) eqn:E2; [split; [exact Hlm | apply Hrefl]|].
  split; apply nlt_ge; assumption.
Qed.
Print Assumptions C09_clip_in_range.

Theorem C09_slope_cases : forall T (N : num T) (le : T -> T -> Prop),
  (forall a b, nltb N a b = false -> le b a) ->
  forall c dt restart d,
  let ratio := ndiv N d dt in
  let r := slope_limit N c dt restart d in
  (nltb N ratio (c_slope_min c) = true /\ r = nmul N dt (c_slope_min c)) \/
  (exists m, c_slope_max c = Some m /\ nltb N m ratio = true /\ le (c_slope_min c) ratio /\ r = nmul N dt m) \/
  (restart = false /\ nltb N (nabs N (nsub N ratio (n1 N))) (c_rel_min_slope c) = true /\
   le (c_slope_min c) ratio /\ r = dt) \/
  (le (c_slope_min c) ratio /\ (forall m, c_slope_max c = Some m -> le ratio m) /\ r = d).
Proof. exact (@slope_limit_cases). Qed.
Print Assumptions C09_slope_cases.

Theorem C09_slope_range_Q : forall (c : cfg Q) dt restart d m,
  (0 < dt)%Q -> c_slope_max c = Some m -> (c_slope_min c <= m)%Q ->
  let r := slope_limit num_Q c dt restart d in
  (r == dt)%Q \/ (c_slope_min c * dt <= r /\ r <= m * dt)%Q.
Proof. exact (@slope_limit_range). Qed.
Print Assumptions C09_slope_range_Q.

(* (3e) a rejected step is retried with a strictly smaller proposal unless a lower limit binds *)
Theorem C09_rejected_gets_smaller : forall (c : cfg Q) dt pw,
  (0 < c_beta c)%Q -> (c_beta c < 1)%Q -> (0 < dt)%Q -> (0 <= pw)%Q -> (pw <= 1)%Q ->
  let p := optimal_dt num_Q c dt pw in
  let r := abs_limit num_Q c (slope_limit num_Q c dt true p) in
  (r < dt)%Q \/ (r == c_dt_min c)%Q \/ (p / dt < c_slope_min c)%Q.
Proof. exact (@rejected_gets_smaller). Qed.
Print Assumptions C09_rejected_gets_smaller.

(* the `min` of SpreadStepSizesBlockwise.prepare_next_block never exceeds its first argument, the proposal;
   what this gives for every step of the next block is (3f) *)
Theorem C09_spread_le : forall T (N : num T) (le : T -> T -> Prop),
  (forall a b, nltb N a b = true -> le a b) -> (forall a b, nltb N a b = false -> le b a) ->
  forall a b, le (pmin N a b) a.
Proof. exact (@pmin_le_left). Qed.
Print Assumptions C09_spread_le.

(* the contract  pw <= 1  of (3e) is met by the real power function for every rejected step
   (e_tol / err <= 1, exponent 1 / order >= 0); the one theorem that rests on the standard library's real numbers *)
Theorem C09_pow_contract : forall x y : R, (0 < x <= 1)%R -> (0 <= y)%R -> (Rpower x y <= 1)%R.
Proof.
  intros x y Hx Hy.
  assert (E : Rpower 1 y = 1%R) by (unfold Rpower; rewrite ln_1, Rmult_0_r; apply exp_0).
  rewrite <- E. apply Rle_Rpower_l; assumption.
Qed.
Print Assumptions C09_pow_contract.

(* (3f) whatever the aliasing between the per-step calls does, no step of the next block gets more than the
   proposal of the step whose size is spread (with (3e): a rejected step is retried with a smaller step) *)
Theorem C09_spread_all_le : forall T (N : num T) (le : T -> T -> Prop),
  (forall a b, nltb N a b = true -> le a b) -> (forall a b, nltb N a b = false -> le b a) ->
  forall c size flags dtnews times dts sf r d,
  spread_from N c size flags dtnews = (sf, r) -> nth sf dtnews None = Some d ->
  size <= length dts ->
  forall i, i < size -> le (nth i (spread_update N c size flags dtnews times dts) (n0 N)) d.
Proof.
  intros T N le lt_le nlt_ge c size flags dtnews times dts sf r d Hsf Hd Hl i Hi.
  rewrite (spread_update_nth T N c size flags dtnews times sf r d Hsf Hd dts i Hl Hi).
  apply (spread_value_le T N le lt_le nlt_ge).
Qed.
Print Assumptions C09_spread_all_le.

(* (3g) avoid_restarts: at every iteration >= maxiter (also after the extra sweeps), a step that leaves
   AdaptivityBase.determine_restart neither restarted nor told to continue has (e_tol <= err) = false *)
Theorem C09_avoid_restarts_accept : forall T (N : num T) c avoid iter maxiter more order e rho,
  maxiter <= iter ->
  adapt_decide N c avoid iter maxiter more order e rho false false = (false, false) ->
  nleb N (c_e_tol c) e = false.
Proof.
  intros T N c avoid iter maxiter more order e rho Hi. unfold adapt_decide.
  replace (maxiter <=? iter) with true by lia.
  destruct (nleb N (c_e_tol c) e); [|reflexivity].
  destruct avoid; [|discriminate].
  destruct (nltb N (n1 N) rho); [discriminate|].
  destruct (2 * maxiter <? iter + more); [discriminate|].
  destruct (order <? iter + more); discriminate.
Qed.
Print Assumptions C09_avoid_restarts_accept.

Theorem C09_step_done_not_continue : forall iter maxiter force_done fc,
  step_done iter maxiter force_done fc = true -> fc = false.
Proof.
  intros iter maxiter force_done fc. unfold step_done.
  destruct fc; [rewrite andb_false_r; discriminate | reflexivity].
Qed.
Print Assumptions C09_step_done_not_continue.

(* ---------------------------------------------------------------- all steps of a block share one dt *)
(* FULL CLAUSE (false for the code as written, see C09_block_shares_dt_refuted):
     forall flags dtnews ..., i < size -> k < size ->
       nth i (spread_update N c size flags dtnews times dts) = nth k (spread_update N c size flags dtnews times dts)
   proved PART: it holds when the block is restarted from its first step, from its last step, or not at
   all ([r] is restart_at of get_step_from_which_to_spread: the first restarted step, or size - 1 if there is
   none, spread_from_r in Proofs/ConvCtrlProofs.v), and the spreading step carries a proposal *)
Theorem C09_block_shares_dt_partial : forall T (N : num T) c size flags dtnews times dts sf r d i k,
  spread_from N c size flags dtnews = (sf, r) -> nth sf dtnews None = Some d ->
  size <= length dts -> (r = 0 \/ size <= r + 1) ->
  i < size -> k < size ->
  nth i (spread_update N c size flags dtnews times dts) (n0 N) =
  nth k (spread_update N c size flags dtnews times dts) (n0 N).
Proof. exact (@block_shares_dt_partial). Qed.
Print Assumptions C09_block_shares_dt_partial.

(* refutation by a purely error-driven history: a block attempt of the run starts with step sizes
   1/3, 1/3, 5/9 (and is accepted as it is) *)
Theorem C09_block_shares_dt_refuted :
  exists b, In b (fst (run num_Q refute_cfg 0%Q 3 refute_script)) /\
    map Qred (g_dts (bt_pre b)) = [(1#3)%Q; (1#3)%Q; (5#9)%Q] /\
    map (@s_restart Q) (bt_post b) = [false; false; false].
Proof.
  eexists. split.
  - vm_compute. right. right. left. reflexivity.
  - vm_compute. split; reflexivity.
Qed.
Print Assumptions C09_block_shares_dt_refuted.

(* ---------------------------------------------------------------- non-vacuity *)
(* the hypotheses of the run theorems hold for the refutation history ... *)
Example C09_nonvacuous_order : order_ok refute_cfg [SScripted; SAdapt] /\ script_ok 3 refute_script.
Proof.
  split.
  - split; [reflexivity|]. simpl. intros [H|[H|[]]]; discriminate.
  - intros a Ha p Hp. simpl in Ha.
    destruct Ha as [<-|[<-|[<-|[]]]]; simpl in Hp; destruct Hp as [<-|[]]; simpl; auto.
Qed.
Print Assumptions C09_nonvacuous_order.

(* ... and a run in which the first step keeps failing is restarted exactly max_restarts = 2 times and
   then raises (integers as the number type) *)
Definition retry_cfg : cfg Z :=
  Cfg [SScripted; SAdapt; SSlope; SLimit; SRestart] 2 true false 10%Z 1%Z 0%Z None 0%Z 1%Z (Some 8%Z) true
      100%Z 0%Z 1000000000%Z 4%Z.
Definition retry_script : list (attempt Z) :=
  let bad := Inj false 20%Z 1%Z None in
  let a := Attempt [[bad; bad]] [0; 1]%Z [1; 2]%Z in [a; a; a; a].
Example C09_nonvacuous_retry :
  order_ok retry_cfg canonical_pre /\
  map (fun b => map (@s_restart Z) (bt_post b)) (fst (run num_Z retry_cfg 0%Z 2 retry_script))
    = [[true; true]; [true; true]; []] /\
  map (fun b => g_riars (bt_pre b)) (fst (run num_Z retry_cfg 0%Z 2 retry_script)) = [[0; 0]; [1; 1]; [2; 2]] /\
  snd (run num_Z retry_cfg 0%Z 2 retry_script) = Raised.
Proof.
  split; [split; [reflexivity | simpl; intros [H|[H|[H|[H|[]]]]]; discriminate]|].
  vm_compute. repeat split.
Qed.
Print Assumptions C09_nonvacuous_retry.

(* the order facts asked by the law-free theorems hold for Q *)
Example C09_nonvacuous_order_Q :
  (forall a b, nltb num_Q a b = true -> (a <= b)%Q) /\ (forall a b, nltb num_Q a b = false -> (b <= a)%Q).
Proof. split; [exact Q_lt_le | exact Q_nlt_ge]. Qed.
Print Assumptions C09_nonvacuous_order_Q.
