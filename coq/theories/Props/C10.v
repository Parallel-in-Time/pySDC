(* C10 — property theorems only (FAS consistency of BaseTransfer). *)
From Coq Require Import List Arith Bool Ring.
From PySDC Require Import Model.Sweep Model.Transfer Model.MultiLevel Proofs.SweepProofs Proofs.TransferProofs Proofs.MultiLevelProofs Proofs.MultiLevelExample.
Import ListNotations.

Section C10.
  Context {K : Type} (kO kI : K) (kadd kmul ksub : K -> K -> K) (kopp : K -> K) (keqb : K -> K -> bool).
  Hypothesis Rth : ring_theory kO kI kadd kmul ksub kopp (@eq K).
  Hypothesis keqb_true : forall a b, keqb a b = true -> a = b.
  Context {Xf Xc : Type}.
  Notation Vf := (Xf -> K).
  Notation Vc := (Xc -> K).
  Variable Mf Mc : nat.
  Variable dtf dtc t0 : K.
  Variable nodes_c : nat -> K.
  Variable Qf Qc : nat -> nat -> K.
  Variable feval_c : K -> Vc -> nat -> Vc.
  Variable Rs : Vf -> Vc.
  Variable Ps : Vc -> Vf.
  Variable Rcoll Pcoll : nat -> nat -> K.
  (* linearity of the space transfer (C11 validates it for the shipped classes) *)
  Hypothesis Rs_add : forall a b x, Rs (vadd kadd a b) x = kadd (Rs a x) (Rs b x).
  Hypothesis Rs_sub : forall a b x, Rs (vsub ksub a b) x = ksub (Rs a x) (Rs b x).
  Hypothesis Rs_zero : forall x, Rs (vzero kO) x = kO.
  Hypothesis Ps_sub : forall a b x, Ps (vsub ksub a b) x = ksub (Ps a x) (Ps b x).
  Hypothesis Ps_ext : forall a b, (forall y, a y = b y) -> forall x, Ps a x = Ps b x.

  Notation restrict := (restrict kO kadd kmul ksub Mf Mc dtf dtc t0 nodes_c Qf Qc 1 feval_c Rs Rcoll).

  (* (1) immediately after restriction the coarse defect is the restricted fine defect — for any number np of
         right-hand-side parts (1: generic_implicit / explicit, 2: IMEX, ...) *)
  Theorem C10_coarse_defect_is_restricted_fine_defect : forall np Fu Ff Ftau,
    (forall m, 1 <= m <= Mf -> (Ftau 1 = None <-> Ftau m = None)) ->
    forall n, 1 <= n <= Mc ->
    sumf kO kadd (fun m => Rcoll n m) 1 Mf = kI ->
    let G := Transfer.restrict kO kadd kmul ksub Mf Mc dtf dtc t0 nodes_c Qf Qc np feval_c Rs Rcoll Fu Ff Ftau in
    forall x,
      residual_vec kO kadd kmul ksub Mc dtc Qc np (Gu G) (Gf G) (Gtau G) n x
      = sumf kO kadd (fun m => kmul (Rcoll n m) (Rs (residual_vec kO kadd kmul ksub Mf dtf Qf np Fu Ff Ftau m) x)) 1 Mf.
  Proof. exact (coarse_defect_is_restricted_fine_defect kO kI kadd kmul ksub kopp Rth Mf Mc dtf dtc t0 nodes_c Qf Qc feval_c Rs Rcoll Rs_add Rs_sub Rs_zero). Qed.

  (* (1b) the END POINT is FAS-consistent: when the last node is the right end on both levels (weights = last row of Q)
          and the last row of the time restriction picks the last fine node, the coarse end point computed by the
          collocation update right after restriction (u0 + dt sum w f + tau_M) is the space-restricted fine end point,
          with or without an inherited fine tau, for any number of right-hand-side parts *)
  Theorem C10_coarse_end_point_is_restricted : forall np (wf wc : nat -> K) Fu Ff Ftau,
    (forall m, 1 <= m <= Mf -> (Ftau 1 = None <-> Ftau m = None)) ->
    1 <= Mf -> 1 <= Mc ->
    (forall j, 1 <= j <= Mf -> wf j = Qf Mf j) -> (forall j, 1 <= j <= Mc -> wc j = Qc Mc j) ->
    (forall m, 1 <= m <= Mf -> Rcoll Mc m = if Nat.eqb m Mf then kI else kO) ->
    (forall a b : Vf, (forall y, a y = b y) -> forall x, Rs a x = Rs b x) ->
    let G := Transfer.restrict kO kadd kmul ksub Mf Mc dtf dtc t0 nodes_c Qf Qc np feval_c Rs Rcoll Fu Ff Ftau in
    forall x,
      end_point kO kadd kmul Mc dtc wc np true true (Gu G) (Gf G) (Gtau G) x
      = Rs (end_point kO kadd kmul Mf dtf wf np true true Fu Ff Ftau) x.
  Proof. exact (coarse_end_point_is_restricted kO kI kadd kmul ksub kopp Rth Mf Mc dtf dtc t0 nodes_c Qf Qc feval_c Rs Rcoll Rs_add Rs_sub Rs_zero). Qed.

  (* (2) prolongation transfers the coarse CORRECTION only *)
  Theorem C10_prolong_zero_correction : forall (G : @coarse K Xc) (Fu : nat -> Vf),
    (forall m, 1 <= m <= Mc -> forall y, Gu G m y = Guold G m y) ->
    forall n x, prolong_u kadd kmul ksub Mc Ps Pcoll G Fu n x = Fu n x.
  Proof. exact (prolong_zero_correction kO kI kadd kmul ksub kopp Rth Mc Ps Pcoll Ps_sub Ps_ext). Qed.

  (* (3) a complete down-up cycle leaves the fine collocation solution unchanged — for linear and
         nonlinear problems alike (of the coarse problem only the uniqueness half of the solver contract,
         solver_left_inverse, is used).  This is the two-level case with different index types for the fine and the
         coarse level, one generic_implicit coarse sweep and values-only prolongation; for everything else
         (any number of levels and sweeps, IMEX, prolong_f, right-hand sides as well) use (4) below. *)
  Variable solve_c : nat -> Vc -> K -> Vc -> K -> Vc.
  Variable QIc : nat -> nat -> K.
  Theorem C10_two_level_cycle_fixed_point : forall Fu Ff Ftau,
    (forall m, 1 <= m <= Mf -> (Ftau 1 = None <-> Ftau m = None)) ->
    (forall m, 1 <= m <= Mf -> forall y, residual_vec kO kadd kmul ksub Mf dtf Qf 1 Fu Ff Ftau m y = kO) ->
    (forall a b : Vf, (forall y, a y = b y) -> forall x, Rs a x = Rs b x) ->
    (forall n, 1 <= n <= Mc -> sumf kO kadd (fun m => Rcoll n m) 1 Mf = kI) ->
    solver_left_inverse kmul ksub solve_c feval_c 0 -> feval_ext feval_c -> lower_triangular kO QIc ->
    (forall m, 1 <= m <= Mc -> kmul dtc (QIc m m) <> kO \/ keqb (kmul dtc (QIc m m)) kO = true) ->
    let G := restrict Fu Ff Ftau in
    let r := gi_update kO kadd kmul ksub keqb Mc dtc t0 nodes_c Qc solve_c feval_c QIc (Gu G) (Gf G) (Gtau G) in
    let G' := {| Gu := fst r; Gf := snd r; Gtau := Gtau G; Guold := Guold G; Gfold := Gfold G |} in
    forall n x, prolong_u kadd kmul ksub Mc Ps Pcoll G' Fu n x = Fu n x.
  Proof.
    intros Fu Ff Ftau Htau Hzero Rs_ext Hrow Hli Hext Htri _.
    apply (two_level_cycle_fixed_point kO kI kadd kmul ksub kopp Rth Mf Mc dtf dtc t0 nodes_c Qf Qc feval_c Rs Ps Rcoll Pcoll
             Rs_add Rs_sub Rs_zero Ps_sub Ps_ext 1 Fu Ff Ftau _ Htau Hzero Rs_ext Hrow).
    intros Hcons Hz.
    apply (gi_collocation_is_fixed_point kO kI kadd kmul ksub kopp keqb Rth keqb_true Mc dtc t0 nodes_c Qc solve_c feval_c QIc
             _ _ _ Hli Hext Htri Hcons).
    intros k Hk z. apply (residual_zero_iff_collocation kO kI kadd kmul ksub kopp Rth), Hz, Hk.
  Qed.
End C10.

(* (4) ANY number of levels, ANY number of sweeps per level, generic_implicit (imex = false) or imex_1st_order (imex = true)
       sweeps, values-only or values-and-right-hand-sides prolongation per transfer: one complete multi-level iteration
       (Model/MultiLevel.vcycle = it_fine / it_down / it_coarse / it_up of controller_nonMPI on one step, tied to the
       real controller by exact correspondence on 2-4 level runs) returns a fine level that holds its collocation
       solution (consistent right-hand sides, zero defect incl. tau) unchanged: same values at the initial point and at every
       node, same right-hand sides.  Linear and nonlinear problems alike: only the solver contract, extensionality of
       eval_f, (strictly) lower-triangular preconditioners, linear space transfer and unit row sums of Rcoll are used. *)
Section C10_multilevel.
  Context {K : Type} (kO kI : K) (kadd kmul ksub : K -> K -> K) (kopp : K -> K) (keqb : K -> K -> bool).
  Hypothesis Rth : ring_theory kO kI kadd kmul ksub kopp (@eq K).
  Hypothesis keqb_true : forall a b, keqb a b = true -> a = b.
  Context {X : Type}.
  Variable t0 : K.
  Theorem C10_multilevel_cycle_fixed_point :
    forall (imex : bool) (rest : list (@xfer K X * @level K X)) (L : @level K X) (tau : nat -> option (X -> K)) (s : @lstate K X),
      hier_ok kO kI kadd kmul ksub keqb imex L rest ->
      holds_solution kO kadd kmul ksub t0 imex L tau s ->
      same L (vcycle kO kadd kmul ksub keqb t0 imex L rest tau s) s.
  Proof. exact (vcycle_fixed_point kO kI kadd kmul ksub kopp keqb Rth keqb_true t0). Qed.

  (* what "holds its collocation solution" means in the two cases *)
  Theorem C10_zero_defect_is_collocation_gi : forall (L : @level K X) tau (s : @lstate K X),
    zero_defect kO kadd kmul ksub false L tau s <-> collocation1 kO kadd kmul (lM L) (ldt L) (lQ L) (fst s) (snd s) tau.
  Proof. intros L tau s. split; intros H m Hm x; apply (residual_zero_iff_collocation kO kI kadd kmul ksub kopp Rth), H, Hm. Qed.
  Theorem C10_zero_defect_is_collocation_imex : forall (L : @level K X) tau (s : @lstate K X),
    zero_defect kO kadd kmul ksub true L tau s <-> collocation2 kO kadd kmul (lM L) (ldt L) (lQ L) (fst s) (snd s) tau.
  Proof. intros L tau s. split; intros H m Hm x; apply (residual_zero_iff_collocation2 kO kI kadd kmul ksub kopp Rth), H, Hm. Qed.
End C10_multilevel.

Print Assumptions C10_coarse_defect_is_restricted_fine_defect.
Print Assumptions C10_coarse_end_point_is_restricted.
Print Assumptions C10_prolong_zero_correction.
Print Assumptions C10_two_level_cycle_fixed_point.
Print Assumptions C10_multilevel_cycle_fixed_point.
Print Assumptions C10_zero_defect_is_collocation_gi.
Print Assumptions C10_zero_defect_is_collocation_imex.

(* Non-vacuity: a concrete three-level hierarchy over Qc (2, 2, 1 nodes; 0+1+1+1+2 sweeps) meets the hypotheses *)
Example C10_multilevel_hypotheses_satisfiable :
  hier_ok exK0 exK1 Qcanon.Qcplus Qcanon.Qcmult Qcanon.Qcminus ex_eqb false ex_fine ex_rest /\
  holds_solution exK0 Qcanon.Qcplus Qcanon.Qcmult Qcanon.Qcminus exK0 false ex_fine (fun _ => None) ex_state.
Proof. exact (conj ex_hier_ok ex_holds). Qed.
Print Assumptions C10_multilevel_hypotheses_satisfiable.
