(* C05 — property theorems only, each followed by Print Assumptions.  The longer proofs stand in
   Proofs/CollocProofs.v; the short ones are given in place. *)
From Coq Require Import ZArith QArith Qabs List Bool.
From PySDC Require Import Base.Dyadic Base.Poly Model.Colloc Proofs.CollocProofs.
Import ListNotations.

(* (1) Soundness of the validator the check evaluates on every table regenerated from the live
   CollBase objects: strict monotonicity and end-point flags; weights exact for EVERY polynomial with
   at most [order] coefficients; every row of Qmat exact for every polynomial with at most M
   coefficients; zero padding; S = row differences of Q; Q = cumulative sums of S; delta_m = node
   differences; do_coll_update forced iff the right end is not a node. *)
Theorem C05_check_coll_sound : forall t, check_coll t = true -> coll_spec t.
Proof. exact check_coll_sound. Qed.
Print Assumptions C05_check_coll_sound.

(* the quadrature clause on its own, stated explicitly *)
Theorem C05_weights_exact_for_all_polynomials : forall t, check_coll t = true ->
  forall c, (length c <= ct_order t)%nat ->
  (Qabs (sigma t * wsum (Qweights t) (Qnodes t) (fun x => peval c (hatQ t x)) - pint c 0 (hatQ t (QB t)))
   <= abs_lin_from 0 c (rule_tol (ct_what t) (ct_xhat t) (ct_rtol t)))%Q.
Proof. intros t H. exact (proj1 (proj2 (check_coll_sound t H))). Qed.
Print Assumptions C05_weights_exact_for_all_polynomials.

Theorem C05_Qmat_rows_exact_for_all_polynomials : forall t, check_coll t = true ->
  forall m, (m < nnodes t)%nat -> forall c, (length c <= nnodes t)%nat ->
  (Qabs (sigma t * wsum (Qrow t (S m)) (Qnodes t) (fun x => peval c (hatQ t x)) - pint c 0 (hatQ t (node t m)))
   <= abs_lin_from 0 c (rule_tol (ct_qhat t (S m)) (ct_xhat t) (ct_rtol t)))%Q.
Proof. intros t H. exact (proj1 (proj2 (proj2 (check_coll_sound t H)))). Qed.
Print Assumptions C05_Qmat_rows_exact_for_all_polynomials.

(* (2) the integral used above is the antiderivative difference, and the antiderivative's formal
   derivative is the polynomial itself *)
Theorem C05_pint_is_antiderivative_difference : forall c lo hi,
  (pint c lo hi == peval (antider c) hi - peval (antider c) lo)%Q.
Proof.
  intros c lo hi. unfold pint. rewrite !peval_antider, <- lin_from_sub. apply lin_from_ext. intro j.
  unfold mono_int. field. apply qnat_S_neq0.
Qed.
Print Assumptions C05_pint_is_antiderivative_difference.

Theorem C05_antiderivative_derivative : forall c, Forall2 Qeq (pderiv (antider c)) c.
Proof. intro c. unfold pderiv, antider. apply deriv_antider_from. Qed.
Print Assumptions C05_antiderivative_derivative.

(* (3) the scaled variable is well conditioned: 1 <= (b - a) * sigma < 2 *)
Theorem C05_scaling_normalises : forall a b, (D2Q a < D2Q b)%Q ->
  (1 <= (D2Q b - D2Q a) * D2Q (sig a b) < 2)%Q.
Proof. exact scale_exp_spec. Qed.
Print Assumptions C05_scaling_normalises.

(* (4) affine law against the table of the same rule on [0,1] *)
Theorem C05_check_affine_sound : forall r t ntol wtol,
  check_affine r t ntol wtol = true -> affine_spec r t ntol wtol.
Proof. exact check_affine_sound. Qed.
Print Assumptions C05_check_affine_sound.

(* non-vacuity: the two-point Lobatto (trapezoidal) rule on [0,1] and on [2,4] passes with zero tolerance *)
Definition trap01 : coll_table :=
  CT (Dy 0 0) (Dy 1 0) [Dy 0 0; Dy 1 0] [Dy 1 (-1); Dy 1 (-1)]
     [[d0; d0; d0]; [d0; d0; d0]; [d0; Dy 1 (-1); Dy 1 (-1)]]
     [[d0; d0; d0]; [d0; d0; d0]; [d0; Dy 1 (-1); Dy 1 (-1)]]
     [d0; d1] 2 true true false false d0 d0.
Definition trap24 : coll_table :=
  CT (Dy 2 0) (Dy 4 0) [Dy 2 0; Dy 4 0] [Dy 1 0; Dy 1 0]
     [[d0; d0; d0]; [d0; d0; d0]; [d0; d1; d1]]
     [[d0; d0; d0]; [d0; d0; d0]; [d0; d1; d1]]
     [d0; Dy 2 0] 2 true true false false d0 d0.
Example C05_nonvacuous : check_coll trap01 = true /\ check_coll trap24 = true /\ check_affine trap01 trap24 d0 d0 = true.
Proof. vm_compute. repeat split. Qed.
Print Assumptions C05_nonvacuous.

(* (5) the collocation-update switch is a function of the current call only, also when ONE sweeper object is
   initialised repeatedly (sweeper.__init__(params), as AdaptiveCollocation does) *)
Theorem C05_check_reinit_sound : forall calls obs, check_reinit calls obs = true ->
  length obs = length calls /\
  forall i, (i < length calls)%nat ->
    let c := nth i calls (true, false) in
    nth i obs false = upd_flag (fst c) (snd c) /\
    (fst c = false -> nth i obs false = true) /\
    (fst c = true -> nth i obs false = snd c).
Proof.
  intros calls obs H. apply bools_eqb_eq in H. subst obs. unfold reinit_flags.
  split; [apply map_length|]. intros i Hi. cbv zeta. set (c := nth i calls (true, false)).
  rewrite (map_nth (fun c0 => upd_flag (fst c0) (snd c0)) calls (true, false) i : nth i (map _ calls) false = _).
  fold c. split; [reflexivity|]. unfold upd_flag. split.
  - intros Hc. rewrite Hc. apply orb_true_r.
  - intros Hc. rewrite Hc. cbn. apply orb_false_r.
Qed.
Print Assumptions C05_check_reinit_sound.

Theorem C05_reinit_history_independent : forall before1 before2 call,
  last (reinit_flags (before1 ++ [call])) false = last (reinit_flags (before2 ++ [call])) false.
Proof. intros. unfold reinit_flags. rewrite !map_app. cbn [map]. rewrite !last_last. reflexivity. Qed.
Print Assumptions C05_reinit_history_independent.
