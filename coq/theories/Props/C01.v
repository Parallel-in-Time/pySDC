(* C01 — property theorems only: what "converged" means and why preconditioner / initial guess
   cannot change the answer.  (Convergence of the iteration itself is the property's premise.) *)
From Coq Require Import List Arith Bool Ring.
From PySDC Require Import Model.Sweep Model.Transfer Model.MultiLevel Model.Block Proofs.SweepProofs Proofs.MultiLevelProofs Proofs.MultiLevelExample Proofs.BlockProofs Proofs.BlockExample Proofs.BlockRefuted.
Import ListNotations.

Section C01.
  Context {K : Type} (kO kI : K) (kadd kmul ksub : K -> K -> K) (kopp : K -> K) (keqb : K -> K -> bool).
  Hypothesis Rth : ring_theory kO kI kadd kmul ksub kopp (@eq K).
  Hypothesis keqb_true : forall a b, keqb a b = true -> a = b.
  Context {X : Type}.
  Notation V := (X -> K).
  Variable M : nat.
  Variable dt t0 : K.
  Variable nodes : nat -> K.
  Variable Q : nat -> nat -> K.
  Variable solve : nat -> V -> K -> V -> K -> V.
  Variable feval : K -> V -> nat -> V.

  (* ANY fixed point of the implicit sweep, for ANY lower-triangular preconditioner QI and ANY
     (nonlinear) problem satisfying the solver contract, solves  U = u0 + dt Q F(U) + tau. *)
  Theorem C01_fixed_point_is_collocation : forall QI u f tau,
    solver_contract kmul ksub solve feval 0 -> feval_ext feval -> lower_triangular kO QI ->
    consistent kadd kmul M dt t0 nodes feval u f ->
    let r := gi_update kO kadd kmul ksub keqb M dt t0 nodes Q solve feval QI u f tau in
    (forall m, 1 <= m <= M -> forall x, fst r m x = u m x) ->
    collocation1 kO kadd kmul M dt Q u f tau.
  Proof. exact (gi_fixed_point_is_collocation kO kI kadd kmul ksub kopp keqb Rth keqb_true M dt t0 nodes Q solve feval). Qed.

  (* conversely the collocation solution is reproduced by every such sweep *)
  Theorem C01_collocation_is_fixed_point : forall QI u f tau,
    solver_left_inverse kmul ksub solve feval 0 -> feval_ext feval -> lower_triangular kO QI ->
    consistent kadd kmul M dt t0 nodes feval u f ->
    (forall m, 1 <= m <= M -> kmul dt (QI m m) <> kO \/ keqb (kmul dt (QI m m)) kO = true) ->
    collocation1 kO kadd kmul M dt Q u f tau ->
    let r := gi_update kO kadd kmul ksub keqb M dt t0 nodes Q solve feval QI u f tau in
    forall m, 1 <= m <= M -> forall x, fst r m x = u m x.
  Proof.
    intros QI u f tau Hli Hext Htri Hcons _.
    exact (gi_collocation_is_fixed_point kO kI kadd kmul ksub kopp keqb Rth keqb_true M dt t0 nodes Q solve feval QI u f tau Hli Hext Htri Hcons).
  Qed.


  (* the same for the IMEX sweeper: any fixed point (any lower-triangular QI, strictly lower-triangular QE)
     solves the collocation problem for the FULL right-hand side f_impl + f_expl (nonlinear parts allowed) *)
  Theorem C01_imex_fixed_point_is_collocation : forall QI QE u f tau,
    solver_contract kmul ksub solve feval 0 -> feval_ext feval -> lower_triangular kO QI -> strictly_lower_triangular kO QE ->
    consistent kadd kmul M dt t0 nodes feval u f ->
    let r := imex_update kO kadd kmul ksub M dt t0 nodes Q solve feval QI QE u f tau in
    (forall m, 1 <= m <= M -> forall x, fst r m x = u m x) ->
    collocation2 kO kadd kmul M dt Q u f tau.
  Proof. exact (imex_fixed_point_is_collocation kO kI kadd kmul ksub kopp Rth M dt t0 nodes Q solve feval). Qed.

  (* conversely the IMEX collocation solution is reproduced by every such sweep (uniqueness half of the solver contract) *)
  Theorem C01_imex_collocation_is_fixed_point : forall QI QE u f tau,
    solver_left_inverse kmul ksub solve feval 0 -> feval_ext feval -> lower_triangular kO QI -> strictly_lower_triangular kO QE ->
    consistent kadd kmul M dt t0 nodes feval u f ->
    collocation2 kO kadd kmul M dt Q u f tau ->
    let r := imex_update kO kadd kmul ksub M dt t0 nodes Q solve feval QI QE u f tau in
    forall m, 1 <= m <= M -> forall x, fst r m x = u m x.
  Proof. exact (imex_collocation_is_fixed_point kO kI kadd kmul ksub kopp Rth M dt t0 nodes Q solve feval). Qed.

  (* explicit sweeper: both directions, no solver involved, any strictly lower-triangular QE *)
  Theorem C01_explicit_fixed_point_is_collocation : forall QE u f tau,
    feval_ext feval -> strictly_lower_triangular kO QE -> consistent kadd kmul M dt t0 nodes feval u f ->
    let r := expl_update kO kadd kmul ksub M dt t0 nodes Q feval QE u f tau in
    (forall m, 1 <= m <= M -> forall x, fst r m x = u m x) ->
    collocation1 kO kadd kmul M dt Q u f tau.
  Proof. exact (expl_fixed_point_is_collocation kO kI kadd kmul ksub kopp Rth M dt t0 nodes Q feval). Qed.

  Theorem C01_explicit_collocation_is_fixed_point : forall QE u f tau,
    feval_ext feval -> strictly_lower_triangular kO QE -> consistent kadd kmul M dt t0 nodes feval u f ->
    collocation1 kO kadd kmul M dt Q u f tau ->
    let r := expl_update kO kadd kmul ksub M dt t0 nodes Q feval QE u f tau in
    forall m, 1 <= m <= M -> forall x, fst r m x = u m x.
  Proof. exact (expl_collocation_is_fixed_point kO kI kadd kmul ksub kopp Rth M dt t0 nodes Q feval). Qed.

  (* multi_implicit (two implicit parts, two-stage sweep): every fixed point solves the collocation problem with f_1 + f_2 *)
  Theorem C01_multi_implicit_fixed_point_is_collocation : forall Q1 Q2 u f tau,
    solver_contract kmul ksub solve feval 0 -> solver_contract kmul ksub solve feval 1 -> feval_ext feval ->
    lower_triangular kO Q1 -> lower_triangular kO Q2 -> consistent kadd kmul M dt t0 nodes feval u f ->
    let r := mi_update kO kadd kmul ksub M dt t0 nodes Q solve feval Q1 Q2 u f tau in
    (forall m, 1 <= m <= M -> forall x, fst r m x = u m x) ->
    collocation2 kO kadd kmul M dt Q u f tau.
  Proof. exact (mi_fixed_point_is_collocation kO kI kadd kmul ksub kopp Rth M dt t0 nodes Q solve feval). Qed.

  (* zero residual <=> collocation equation (the residual IS the defect) *)
  Theorem C01_residual_zero_iff_collocation : forall (u : nat -> V) f tau m x,
    residual_vec kO kadd kmul ksub M dt Q 1 u f tau m x = kO <->
    u m x = kadd (kadd (u 0 x) (kmul dt (sumf kO kadd (fun j => kmul (Q m j) (f j 0 x)) 1 M))) (tauval kO tau m x).
  Proof. exact (residual_zero_iff_collocation kO kI kadd kmul ksub kopp Rth M dt Q). Qed.
End C01.

Print Assumptions C01_fixed_point_is_collocation.
Print Assumptions C01_collocation_is_fixed_point.
Print Assumptions C01_imex_fixed_point_is_collocation.
Print Assumptions C01_imex_collocation_is_fixed_point.
Print Assumptions C01_explicit_fixed_point_is_collocation.
Print Assumptions C01_explicit_collocation_is_fixed_point.
Print Assumptions C01_multi_implicit_fixed_point_is_collocation.
Print Assumptions C01_residual_zero_iff_collocation.

(* ------------------------------------------------------------------------------------------------
   Blocks of time-parallel steps (MSSDC / MLSDC / PFASST).  Model/Block.v: the state of every (step, level) and the five
   primitive operations the controller composes (Sweep, Send = compute the end value — last node or quadrature —, Recv = take the end value the predecessor has sent, Restrict, Prolong);
   pfasst_iteration = the schedule of one controller iteration, tied to the real controller_nonMPI by exact correspondence on
   blocks of 2-3 steps with 1-3 levels (Jacobi and Gauss-Seidel coupling, generic_implicit and IMEX sweepers, both
   prolongation modes) every run.

   THEOREM: a block whose fine levels hold the collocation solutions of their steps (holds_solution: consistent right-hand
   sides, zero defect), chained by their end values (initial value of step p = end value of step p-1: last node, or the quadrature end value for a single level), is left unchanged —
   same values at every node and the initial point, same right-hand sides — by EVERY schedule of sweeps, forward transfers,
   restrictions and prolongations inside the hierarchy: any number of steps and levels, any number of sweeps, any order
   (Jacobi, Gauss-Seidel, or anything else).  Number of time-parallel steps, coupling mode, coarse levels and sweep counts can
   change how fast the iteration gets there, never the fixed point. *)
Section C01_block.
  Context {K : Type} (kO kI : K) (kadd kmul ksub : K -> K -> K) (kopp : K -> K) (keqb : K -> K -> bool).
  Hypothesis Rth : ring_theory kO kI kadd kmul ksub kopp (@eq K).
  Hypothesis keqb_true : forall a b, keqb a b = true -> a = b.
  Context {X : Type}.
  Variable imex : bool.
  Variable lev : nat -> @level K X.
  Variable xf : nat -> @xfer K X.
  Variable tstart : nat -> K.
  Variable lend : nat -> @endp K.              (* end-point mode and weights of every level *)
  Variable P L : nat.
  Hypothesis Hlev : forall l, l < L -> level_ok kO kmul ksub keqb imex (lev l) /\ 1 <= lM (lev l).
  Hypothesis Hxf : forall l, S l < L ->
    xfer_ok kO kI kadd ksub (xf l) (lev l) (lev (S l)) /\
    (forall m, 1 <= m <= lM (lev l) -> xRcoll (xf l) (lM (lev (S l))) m = if Nat.eqb m (lM (lev l)) then kI else kO).
  (* more than one level: the end value is the last node on every level (what the controller enforces for PFASST) *)
  Hypothesis Hcopy : 1 < L -> forall l, l < L -> erin (lend l) && negb (edcu (lend l)) = true.
  Variable R0 : nat -> @lvst K X.
  Hypothesis H0 : forall p, p < P ->
    holds_solution kO kadd kmul ksub (tstart p) imex (lev 0) (stau (R0 p)) (su (R0 p), sf (R0 p)).
  Hypothesis Hchain : forall p, 0 < p < P -> forall x, su (R0 p) 0 x = end_value kO kadd kmul imex lev lend 0 (R0 (p - 1)) x.

  Theorem C01_block_fixed_point_any_schedule : forall ops,
    Forall (op_in_bounds L) ops ->
    forall p, p < P -> 0 < L ->
    let B := run_ops kO kadd kmul ksub keqb imex lev xf tstart lend ops (init_block kO P R0) in
    svalid (B p 0) = true ->
    same (lev 0) (su (B p 0), sf (B p 0)) (su (R0 p), sf (R0 p)).
  Proof. exact (block_fixed_point_any_schedule kO kI kadd kmul ksub kopp keqb Rth keqb_true imex lev xf tstart lend P L Hlev Hxf Hcopy R0 H0 Hchain). Qed.

  (* the controller's schedules are schedules of these operations inside the hierarchy: one iteration ... *)
  Theorem C01_controller_schedule_in_bounds : forall nsw jacobi, Forall (op_in_bounds L) (pfasst_iteration P L nsw jacobi).
  Proof. exact (pfasst_iteration_in_bounds L P). Qed.
  (* ... and the predictors (fine_only, pfasst_burnin), tied to controller_nonMPI.predict by exact correspondence; so is any
     concatenation predictor ++ iteration ++ iteration ... *)
  Theorem C01_predictor_schedule_in_bounds : forall pt, Forall (op_in_bounds L) (predict_ops P L pt).
  Proof. exact (predict_ops_in_bounds L P). Qed.

  (* ... hence the WHOLE RUN of a block (any predictor followed by any number n of iterations; any number of steps and levels,
     any sweep counts, Jacobi or Gauss-Seidel coupling): its schedule stays inside the hierarchy and keeps every entry valid,
     so every step comes back unchanged *)
  Theorem C01_controller_run_fixed_point : 0 < L -> forall pt n nsw jacobi,
    let ops := predict_ops P L pt ++ repeat_ops n (pfasst_iteration P L nsw jacobi) in
    let B := run_ops kO kadd kmul ksub keqb imex lev xf tstart lend ops (init_block kO P R0) in
    forall p, p < P ->
      svalid (B p 0) = true /\
      same (lev 0) (su (B p 0), sf (B p 0)) (su (R0 p), sf (R0 p)).
  Proof.
    intros HL pt n nsw jacobi ops B p Hp.
    assert (Hb : Forall (op_in_bounds L) ops).
    { apply Forall_app; split; [apply C01_predictor_schedule_in_bounds | apply repeat_ops_inb, C01_controller_schedule_in_bounds]. }
    assert (Hv : svalid (B p 0) = true).
    { apply flags_valid; [|exact Hp]. unfold ops. rewrite fold_left_app. apply iterations_valid, predict_ops_valid, init_Vk. }
    exact (conj Hv (C01_block_fixed_point_any_schedule ops Hb p Hp HL Hv)).
  Qed.

  (* ... in particular ONE ITERATION OF THE CONTROLLER: no predictor, n = 1 *)
  Theorem C01_controller_iteration_fixed_point : 0 < L -> forall nsw jacobi,
    let B := run_ops kO kadd kmul ksub keqb imex lev xf tstart lend (pfasst_iteration P L nsw jacobi) (init_block kO P R0) in
    forall p, p < P ->
      svalid (B p 0) = true /\
      same (lev 0) (su (B p 0), sf (B p 0)) (su (R0 p), sf (R0 p)).
  Proof.
    intros HL nsw jacobi. pose proof (C01_controller_run_fixed_point HL PredNone 1 nsw jacobi) as H.
    cbn [predict_ops repeat_ops app] in H. rewrite app_nil_r in H. exact H.
  Qed.
End C01_block.
Print Assumptions C01_block_fixed_point_any_schedule.
Print Assumptions C01_controller_iteration_fixed_point.
Print Assumptions C01_controller_run_fixed_point.
Print Assumptions C01_controller_schedule_in_bounds.
Print Assumptions C01_predictor_schedule_in_bounds.

(* Non-vacuity: a concrete block (2 steps, 2 levels, Qc) meets every hypothesis, all entries stay valid under the controller's
   schedule, and the theorem returns both steps unchanged *)
Example C01_block_hypotheses_satisfiable :
  forall p, p < 2 ->
  let B := run_ops exK0 Qcanon.Qcplus Qcanon.Qcmult Qcanon.Qcminus ex_eqb false bx_lev bx_xf bx_tstart bx_lend bx_ops (init_block exK0 2 bx_R0) in
  same (bx_lev 0) (su (B p 0), sf (B p 0)) (su (bx_R0 p), sf (bx_R0 p)).
Proof. exact bx_fixed. Qed.
Print Assumptions C01_block_hypotheses_satisfiable.

(* Known finding as a statement about the model (witness by vm_compute): with a QUADRATURE end point the communication order of
   it_check (send, then receive) makes a step's successor start from a value that differs from the end value of the state the step
   holds afterwards (6 against 2 in the witness) — the chain of end values is exact only in copy mode
   (BlockRefuted.copy_chain_exact_instance: the same communication with the last node as end value) or at the fixed point *)
Theorem C01_quadrature_chain_inexact_refuted :
  let B := rz_run (it_check_ops 3) rz_B0 in
  su (B 2 0) 0 tt = rz_six /\ rz_uend (B 1 0) = rz_two /\
  svalid (B 1 0) = true /\ svalid (B 2 0) = true /\ ssent (B 1 0) = true.
Proof. vm_compute. repeat split; reflexivity. Qed.
Print Assumptions C01_quadrature_chain_inexact_refuted.
