(* C04 — property theorems only, each followed by Print Assumptions.  The longer proofs stand in
   Proofs/OrderProofs.v and are closed here by [exact]; the short ones are given in place. *)
From Coq Require Import ZArith QArith Qabs List Bool Lia.
From PySDC Require Import Base.Dyadic Base.DyadicFast Model.Order Proofs.OrderProofs.
Import ListNotations.
Open Scope Q_scope.

(* (1) Neumann expansion: for EVERY matrix A, right-hand side e, every z and every solution Y of
   Y = e + z A Y, Y equals its expansion in powers of z A up to an explicit remainder z^N A^N Y. *)
Theorem C04_neumann_expansion : forall n A e z Y,
  (forall i, Y i == e i + z * mv n A Y i) ->
  forall N i, Y i == bigsum N (fun j => zpow z j * mpow n A j e i) + zpow z N * mpow n A N Y i.
Proof. exact neumann_expansion. Qed.
Print Assumptions C04_neumann_expansion.

(* With e = 1: for every stage matrix A, weights b, every z and every solution Y of the stage system
   Y = 1 + z A Y, the stability function 1 + z b.Y equals its Taylor polynomial with coefficients
   [stab_coef] = b . A^(j-1) 1 plus an explicit O(z^(N+1)) remainder. *)
Theorem C04_stability_expansion : forall n A b z Y,
  (forall i, Y i == 1 + z * mv n A Y i) ->
  forall N, 1 + z * vdot n b Y ==
            bigsum (S N) (fun j => zpow z j * stab_coef n A b j) + zpow z (S N) * vdot n b (mpow n A N Y).
Proof.
  intros n A b z Y HY N. rewrite (vdot_neumann n A b ones z Y HY N), bigsum_shift.
  cbn [stab_coef zpow]. rewrite Qmult_plus_distr_r, <- bigsum_scal.
  rewrite (bigsum_ext N _ (fun j => z * zpow z j * vdot n b (mpow n A j ones))) by (intros; ring).
  ring.
Qed.
Print Assumptions C04_stability_expansion.

(* (2) one sweep propagates the error by (I - z QD)^-1 z (Q - QD); fixed points are collocation solutions *)
Theorem C04_error_propagation : forall n Qm QD z U U' Uc,
  is_sweep n Qm QD z U U' -> is_coll n Qm z Uc ->
  forall i, (U' i - Uc i) - z * mv n QD (fun j => U' j - Uc j) i == z * mv n (msub Qm QD) (fun j => U j - Uc j) i.
Proof. exact error_propagation. Qed.
Print Assumptions C04_error_propagation.

Theorem C04_fixed_point_is_collocation : forall n Qm QD z U,
  is_sweep n Qm QD z U U -> is_coll n Qm z U.
Proof.
  intros n Qm QD z U HS i. pose proof (HS i) as E. rewrite mv_msub in E.
  setoid_replace (U i) with ((U i - z * mv n QD U i) + z * mv n QD U i) by ring. rewrite E. ring.
Qed.
Print Assumptions C04_fixed_point_is_collocation.

(* (3) ORDER GAIN, formal power series: for every number of nodes, every Q, every sequence of
   preconditioners (any matrices), the Taylor coefficients m <= k of the k-th iterate from the spread
   initial guess are those of the collocation solution.  Hence uend/u0 matches the collocation
   stability function through order k+1 (collocation update) resp. k (last node). *)
Theorem C04_order_gain_series : forall n Qm QD k m, (m <= k)%nat ->
  forall i, Tser n Qm QD k m i == mpow n Qm m ones i.
Proof.
  intros n Qm QD. induction k as [|k IHk]; intros m Hm.
  - replace m with 0%nat by lia. intro i. reflexivity.
  - induction m as [|m IHm]; intro i; [reflexivity|].
    rewrite Tser_SS.
    rewrite (mv_veq n (QD k) _ _ (IHm ltac:(lia)) i).
    rewrite (mv_veq n (msub Qm (QD k)) _ _ (IHk m ltac:(lia)) i).
    rewrite mv_msub. cbn [mpow]. ring.
Qed.
Print Assumptions C04_order_gain_series.

Theorem C04_sdc_order_upd : forall n Qm QD w k j, (j <= S k)%nat ->
  sdc_coef_upd n Qm QD w k j == stab_coef n Qm w j.
Proof.
  intros n Qm QD w k j Hj. destruct j as [|j]; [reflexivity|]. cbn [sdc_coef_upd stab_coef].
  apply vdot_veq. intro i. apply C04_order_gain_series. lia.
Qed.
Print Assumptions C04_sdc_order_upd.

Theorem C04_sdc_order_last : forall n Qm QD k j, (j <= k)%nat ->
  sdc_coef_last n Qm QD k j == stage_coef n Qm (n - 1) j.
Proof. intros n Qm QD k j Hj. unfold sdc_coef_last, stage_coef. apply C04_order_gain_series. exact Hj. Qed.
Print Assumptions C04_sdc_order_last.

(* (4) ORDER GAIN for the actual iterates: U^k - U_c = z^(k+1) g_k, g_k given by triangular solves only *)
Theorem C04_order_gain : forall n Qm QD z (U G : nat -> vec) Uc,
  (forall k, lower_tri n (QD k)) -> (forall k i, (i < n)%nat -> ~ 1 - z * QD k i i == 0) ->
  veq (U 0%nat) ones -> (forall k, is_sweep n Qm (QD k) z (U k) (U (S k))) -> is_coll n Qm z Uc ->
  (forall i, G 0%nat i == - mv n Qm Uc i) ->
  (forall k i, (i < n)%nat -> G (S k) i - z * mv n (QD k) (G (S k)) i == mv n (msub Qm (QD k)) (G k) i) ->
  forall k i, (i < n)%nat -> U k i - Uc i == zpow z (S k) * G k i.
Proof. exact order_gain. Qed.
Print Assumptions C04_order_gain.

(* ... and the iterates equal their truncated formal series up to z^(N+1) times a triangular-solve cofactor *)
Theorem C04_series_remainder : forall n Qm QD z (U H : nat -> vec) N,
  (forall k, lower_tri n (QD k)) -> (forall k i, (i < n)%nat -> ~ 1 - z * QD k i i == 0) ->
  veq (U 0%nat) ones -> (forall k, is_sweep n Qm (QD k) z (U k) (U (S k))) ->
  (forall i, H 0%nat i == 0) ->
  (forall k i, (i < n)%nat -> H (S k) i - z * mv n (QD k) (H (S k)) i
                             == z * mv n (msub Qm (QD k)) (H k) i + Tser n Qm QD (S k) (S N) i) ->
  forall k i, (i < n)%nat -> U k i == trunc n Qm QD z k (S N) i + zpow z (S N) * H k i.
Proof. exact series_remainder. Qed.
Print Assumptions C04_series_remainder.

(* (5) pattern-A validators (run by the check on tables regenerated from the live classes) *)
Theorem C04_check_order_sound : forall A b p tol, check_order A b p tol = true ->
  forall j, (1 <= j <= p)%nat ->
  Qabs (stab_coef (length A) (mofl A) (vofl b) j - 1 / qfact j) <= D2Q tol.
Proof. exact check_order_sound. Qed.
Print Assumptions C04_check_order_sound.

Theorem C04_rk_order : forall A b p tol, check_order A b p tol = true ->
  let n := length A in
  forall z Y, (forall i, Y i == 1 + z * mv n (mofl A) Y i) ->
  (1 + z * vdot n (vofl b) Y ==
     bigsum (S p) (fun j => zpow z j * stab_coef n (mofl A) (vofl b) j)
     + zpow z (S p) * vdot n (vofl b) (mpow n (mofl A) p Y))
  /\ forall j, (1 <= j <= p)%nat -> Qabs (stab_coef n (mofl A) (vofl b) j - 1 / qfact j) <= D2Q tol.
Proof.
  intros A b p tol H n z Y HY. split; [apply C04_stability_expansion; exact HY | apply check_order_sound; exact H].
Qed.
Print Assumptions C04_rk_order.

Theorem C04_check_embedded_sound : forall A b1 b2 q tol, check_embedded A b1 b2 q tol = true ->
  forall j, (1 <= j < q)%nat ->
  Qabs (stab_coef (length A) (mofl A) (vofl b1) j - stab_coef (length A) (mofl A) (vofl b2) j) <= D2Q tol.
Proof.
  intros A b1 b2 q tol. unfold check_embedded.
  intros [[[HA%square_sq Hb1%Nat.eqb_eq]%andb_prop Hb2%Nat.eqb_eq]%andb_prop Hc]%andb_prop [|j] Hj; [lia|].
  cbn [stab_coef].
  rewrite <- !(dpowers_coef_sound _ A _ (dones (length A)) ones (q - 1) j HA) by (lia || apply dones_sound).
  apply (forallb_fclose (ddot b1) (ddot b2) _ _ _ Hc), nth_In. rewrite dpowers_length. lia.
Qed.
Print Assumptions C04_check_embedded_sound.

Theorem C04_check_series_sound : forall A b g ts tol, check_series A b g ts tol = true ->
  forall j, (j < length ts)%nat ->
  (0 < nth j ts 1)%Z /\
  Qabs (vdot (length A) (vofl b) (mpow (length A) (mofl A) j (vofl g)) - 1 / inject_Z (nth j ts 1%Z)) <= D2Q tol.
Proof.
  intros A b g ts tol. unfold check_series.
  intros [[[HA%square_sq Hb%Nat.eqb_eq]%andb_prop Hg%Nat.eqb_eq]%andb_prop Hc]%andb_prop j Hj.
  rewrite <- (dpowers_coef_sound _ A b g (vofl g) (length ts) j HA), <- nth_map_ddot by (lia || apply vofl_veqn_refl).
  exact (series_ok_sound tol _ ts Hc j Hj).
Qed.
Print Assumptions C04_check_series_sound.

(* IMEX Runge-Kutta: every coefficient of zI^a zE^b, a + b <= p, of the bivariate stability function
   is within tol of 1/(a! b!) *)
Theorem C04_check_order_imex_sound : forall AI AE bI bE p tol, check_order_imex AI AE bI bE p tol = true ->
  forall a b, (a + b <= p)%nat ->
  Qabs (imex_coef (length AI) (mofl AI) (mofl AE) (vofl bI) (vofl bE) a b - 1 / (qfact a * qfact b)) <= D2Q tol.
Proof.
  intros AI AE bI bE p tol. unfold check_order_imex. cbv zeta.
  intros [[[[HI%square_sq HE%square_sq]%andb_prop HbI%Nat.eqb_eq]%andb_prop HbE%Nat.eqb_eq]%andb_prop Hc]%andb_prop a b Hab.
  rewrite <- (dimex_coef_sound AI AE bI bE a b HI HE) by lia.
  rewrite !qfact_zfact, <- inject_Z_mult.
  apply scaled_close_sound; [apply Z.mul_pos_pos; apply zfact_pos|].
  apply (proj1 (forallb_forall _ _) Hc (a, b)), pairs_upto_In, Hab.
Qed.
Print Assumptions C04_check_order_imex_sound.

Theorem C04_check_embedded_imex_sound : forall AI AE bI1 bE1 bI2 bE2 q tol,
  check_embedded_imex AI AE bI1 bE1 bI2 bE2 q tol = true ->
  forall a b, (a + b < q)%nat ->
  Qabs (imex_coef (length AI) (mofl AI) (mofl AE) (vofl bI1) (vofl bE1) a b
        - imex_coef (length AI) (mofl AI) (mofl AE) (vofl bI2) (vofl bE2) a b) <= D2Q tol.
Proof.
  intros AI AE bI1 bE1 bI2 bE2 q tol. unfold check_embedded_imex. cbv zeta.
  intros [[[[[[HI%square_sq HE%square_sq]%andb_prop HbI1%Nat.eqb_eq]%andb_prop HbE1%Nat.eqb_eq]%andb_prop
             HbI2%Nat.eqb_eq]%andb_prop HbE2%Nat.eqb_eq]%andb_prop Hc]%andb_prop a b Hab.
  rewrite <- !(dimex_coef_sound AI AE _ _ a b HI HE) by lia.
  apply (forallb_fclose _ _ _ _ (a, b) Hc), pairs_upto_In. lia.
Qed.
Print Assumptions C04_check_embedded_imex_sound.

(* IMEX: the bivariate table really is the expansion of the IMEX stability function
   R = 1 + zI bI.Y + zE bE.Y with Y = 1 + zI AI Y + zE AE Y (homogeneous parts + explicit remainder) *)
Theorem C04_eval_table_is_power : forall n AI AE zI zE j i,
  Hdeg n AI AE zI zE j i == mpow n (madd (mscal zI AI) (mscal zE AE)) j ones i.
Proof. exact eval_table_is_power. Qed.
Print Assumptions C04_eval_table_is_power.

Theorem C04_imex_stability_expansion : forall n AI AE bI bE zI zE Y,
  (forall i, Y i == 1 + (zI * mv n AI Y i + zE * mv n AE Y i)) ->
  forall N,
  1 + (zI * vdot n bI Y + zE * vdot n bE Y)
  == bigsum (S N) (fun j => Cdeg n AI AE bI bE zI zE j)
     + (zI * vdot n bI (mpow n (madd (mscal zI AI) (mscal zE AE)) N Y)
        + zE * vdot n bE (mpow n (madd (mscal zI AI) (mscal zE AE)) N Y)).
Proof. exact imex_stability_expansion. Qed.
Print Assumptions C04_imex_stability_expansion.

(* (6) the coefficient lists the check prints (and compares with the FFT of the real runs) are the
   formal Taylor coefficients of uend/u0 after k sweeps with the sweeper's actual QDelta matrices *)
Theorem C04_dsdc_coefs_sound : forall Qm QDs w N (QDf : nat -> mat),
  let n := length Qm in
  square n Qm = true -> (length w <= n)%nat ->
  (forall s, (s < length QDs)%nat -> square n (nth s QDs []) = true /\ forall i j, QDf s i j == mofl (nth s QDs []) i j) ->
  forall k j, (k <= length QDs)%nat -> (j < N)%nat ->
  D2Q (nth j (nth k (dsdc_coefs_upd Qm QDs w N) []) d0) == sdc_coef_upd n (mofl Qm) QDf (vofl w) k j.
Proof.
  intros Qm QDs w N QDf n HQ Hw HD k j Hk Hj. unfold dsdc_coefs_upd. fold n.
  set (F := fun row : list (list dy) => d1 :: map (ddot w) (removelast row)).
  rewrite (nth_indep _ [] (F [])) by (rewrite map_length, dser_length; lia). rewrite (map_nth F). unfold F.
  destruct j as [|j]; cbn [nth sdc_coef_upd]; [reflexivity|].
  rewrite nth_map_ddot, nth_removelast by (rewrite dser_row_lengths, dser_row0_length; lia).
  apply ddot_sound; [exact Hw | apply (dser0_sound n QDf Qm (square_sq _ _ HQ) QDs N HD k j); lia].
Qed.
Print Assumptions C04_dsdc_coefs_sound.

Theorem C04_dsdc_coefs_last_sound : forall Qm QDs N (QDf : nat -> mat),
  let n := length Qm in
  square n Qm = true -> (0 < n)%nat ->
  (forall s, (s < length QDs)%nat -> square n (nth s QDs []) = true /\ forall i j, QDf s i j == mofl (nth s QDs []) i j) ->
  forall k j, (k <= length QDs)%nat -> (j < N)%nat ->
  D2Q (nth j (nth k (dsdc_coefs_last Qm QDs N) []) d0) == sdc_coef_last n (mofl Qm) QDf k j.
Proof.
  intros Qm QDs N QDf n HQ Hn HD k j Hk Hj. unfold dsdc_coefs_last. fold n.
  change (@nil dy) with (map (fun v : list dy => last v d0) []) at 1.
  rewrite (map_nth (map (fun v : list dy => last v d0))).
  rewrite (map_nth (fun v : list dy => last v d0) _ [] j : nth j (map _ _) d0 = _).
  destruct (dser0_sound n QDf Qm (square_sq _ _ HQ) QDs N HD k j Hk Hj) as [L R].
  rewrite last_nth, L. apply R. lia.
Qed.
Print Assumptions C04_dsdc_coefs_last_sound.

(* non-vacuity of the hypotheses of C04_order_gain: a concrete instance (M = 1 midpoint rule, implicit Euler
   preconditioner, z = 1/2) satisfying all of them, with the conclusion *)
Example C04_order_gain_instance :
  let n := 1%nat in
  let Qm : mat := fun _ _ => 1 # 2 in
  let QD : nat -> mat := fun _ _ _ => 1 in
  let z : Q := 1 # 2 in
  let U : nat -> vec := fun k _ => (4 # 3) - (1 # 3) * zpow (- (1 # 2)) k in
  let Uc : vec := fun _ => 4 # 3 in
  let G : nat -> vec := fun k _ => - (2 # 3) * zpow (- (1)) k in
  (forall k, lower_tri n (QD k)) /\ (forall k i, (i < n)%nat -> ~ 1 - z * QD k i i == 0) /\
  veq (U 0%nat) ones /\ (forall k, is_sweep n Qm (QD k) z (U k) (U (S k))) /\ is_coll n Qm z Uc /\
  (forall i, G 0%nat i == - mv n Qm Uc i) /\
  (forall k i, (i < n)%nat -> G (S k) i - z * mv n (QD k) (G (S k)) i == mv n (msub Qm (QD k)) (G k) i) /\
  (forall k i, (i < n)%nat -> U k i - Uc i == zpow z (S k) * G k i).
Proof. exact order_gain_instance. Qed.
Print Assumptions C04_order_gain_instance.

(* non-vacuity: the explicit midpoint rule passes the order-2 validator with zero tolerance (and not order 3) *)
Example C04_nonvacuous_validator :
  check_order [[d0; d0]; [Dy 1 (-1); d0]] [d0; d1] 2 d0 = true /\
  check_order [[d0; d0]; [Dy 1 (-1); d0]] [d0; d1] 3 (Dy 1 (-10)) = false.
Proof. vm_compute. split; reflexivity. Qed.
Print Assumptions C04_nonvacuous_validator.
