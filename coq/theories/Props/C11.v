(* C11 — property theorems only.  Each is a lemma of Proofs/TransferOpsProofs.v, or a short consequence of
   some proved here, and is followed by Print Assumptions. *)
From Coq Require Import ZArith QArith Qabs List Bool Lia ZifyBool.
From PySDC Require Import Base.Dyadic Base.Poly Model.TransferOps Model.FDnd Proofs.TransferOpsProofs Proofs.FDndProofs.
Import ListNotations.

(* ------------------------------------------------------------------------------------------------
   (1) Transfer between collocation node sets: a matrix accepted by the validator (which the check
   evaluates on Pcoll / Rcoll regenerated from the live BaseTransfer) reproduces EVERY polynomial of
   degree < number of source nodes at every destination node, up to the stated bound. *)
Theorem C11_node_transfer_sound :
  forall P src dst rtol atol, check_node_transfer P src dst rtol atol = true ->
  forall i, (i < length dst)%nat ->
  forall c, (length c <= length src)%nat ->
  (Qabs (wsum (Qw (nth i P [])) (Qw src) (peval c) - peval c (D2Q (nth i dst d0)))
   <= abs_lin_from 0 c (row_tol (nth i P []) src (nth i dst d0) rtol atol))%Q.
Proof. exact node_transfer_sound. Qed.
Print Assumptions C11_node_transfer_sound.

(* ... in particular its rows sum to one *)
Theorem C11_node_transfer_rows_sum_one :
  forall P src dst rtol atol, check_node_transfer P src dst rtol atol = true ->
  forall i, (i < length dst)%nat -> (0 < length src)%nat ->
  (Qabs (qsum (Qw (nth i P [])) - 1) <= row_tol (nth i P []) src (nth i dst d0) rtol atol 0)%Q.
Proof. intros P src dst rtol atol Hc i Hi. apply interp_row_sums_to_one, check_node_transfer_row; assumption. Qed.
Print Assumptions C11_node_transfer_rows_sum_one.

(* (2) restriction after prolongation is the identity: (R (P u))_i = u_i for EVERY coarse vector u *)
Theorem C11_RP_identity :
  forall R P n tol, check_RP R P n tol = true ->
  forall (u : list Q) i, (i < n)%nat ->
  (Qabs (dotQ (Qw (nth i R [])) (mvQ P u) - nth i u 0) <= D2Q tol * sumabs u)%Q.
Proof. exact RP_identity. Qed.
Print Assumptions C11_RP_identity.

(* ------------------------------------------------------------------------------------------------
   (3) A row over integer offsets accepted by the validator interpolates every polynomial of degree
   < number of support points, for every centre x and every mesh width h (global monomial basis). *)
Theorem C11_interp_row_sound_affine :
  forall w os rtol atol, check_interp_row w (map dZ os) d0 rtol atol = true ->
  forall c x h, (length c <= length os)%nat ->
  (Qabs (wsum (Qw w) (map (fun o => x + inject_Z o * h) os) (peval c) - peval c x)
   <= abs_lin_from 0 (pshift c x h) (row_tol w (map dZ os) d0 rtol atol))%Q.
Proof. exact interp_row_sound_affine. Qed.
Print Assumptions C11_interp_row_sound_affine.

(* the Taylor shift used in the bounds: pshift c x h are the coefficients of t |-> p(x + t h) *)
Theorem C11_pshift_correct : forall c x h t, (peval (pshift c x h) t == peval c (x + t * h))%Q.
Proof. exact peval_pshift. Qed.
Print Assumptions C11_pshift_correct.

(* (4) a dense matrix row accepted against a support: applied to ANY coarse data that agrees on the support with
   ANY polynomial of degree < |support| it returns the value of that polynomial at the fine point *)
Theorem C11_space_row_sound :
  forall sup exempt row rtol, check_sup_row sup exempt row rtol = true ->
  forall c x h (u : Z -> Q), (length c <= length sup)%nat ->
  (forall col o, In (col, o) sup -> u col == peval c (x + inject_Z o * h))%Q ->
  (forall e, In e exempt -> ~ In e (map fst sup) -> u e == 0)%Q ->
  (Qabs (apply_row row u - peval c x) <= abs_lin_from 0 (pshift c x h) (sup_tol sup row rtol))%Q.
Proof. exact sup_row_sound. Qed.
Print Assumptions C11_space_row_sound.

(* periodic grids: support = the k nearest periodic images (5), constants preserved *)
Theorem C11_per_row_sound :
  forall nc k i row rtol, check_per_row nc k i row rtol = true ->
  forall c x h (u : Z -> Q), (length c <= length (per_support nc k i))%nat ->
  (forall col o, In (col, o) (per_support nc k i) -> u col == peval c (x + inject_Z o * h))%Q ->
  (Qabs (apply_row row u - peval c x) <= abs_lin_from 0 (pshift c x h) (sup_tol (per_support nc k i) row rtol))%Q.
Proof.
  intros nc k i row rtol Hc c x h u Hlen Hu. apply andb_prop in Hc as [_ Hc].
  apply (sup_row_sound _ [] row rtol Hc c x h u Hlen Hu). intros e [].
Qed.
Print Assumptions C11_per_row_sound.

Theorem C11_per_row_constants :
  forall nc k i row rtol, check_per_row nc k i row rtol = true -> (0 < length (per_support nc k i))%nat ->
  forall a, (Qabs (apply_row row (fun _ => a) - a) <= Qabs a * sup_tol (per_support nc k i) row rtol 0)%Q.
Proof.  (* the polynomial [a] around x = 0 with h = 0 *)
  intros nc k i row rtol Hc Hpos a.
  pose proof (C11_per_row_sound _ _ _ _ _ Hc [a] 0%Q 0%Q (fun _ => a)) as H.
  cbn [length pshift padd pscale map abs_lin_from peval fold_right] in H.
  specialize (H ltac:(lia) ltac:(intros; ring)).
  setoid_replace (a + 0)%Q with a in H by ring. rewrite Qplus_0_r in H. exact H.
Qed.
Print Assumptions C11_per_row_constants.

(* non-periodic grids: padded data with homogeneous boundary values; a polynomial of degree < k that the data
   follows on the support (hence vanishing at the boundary point when that belongs to the support) is reproduced *)
Theorem C11_dir_row_sound :
  forall nc k i row rtol, check_dir_row nc k i row rtol = true ->
  forall c x h (u : Z -> Q), (length c <= length (dir_support nc k i))%nat ->
  (forall q o, In (q, o) (dir_support nc k i) -> u q == peval c (x + inject_Z o * h))%Q ->
  (u 0%Z == 0)%Q -> (u (nc + 1)%Z == 0)%Q ->
  (Qabs (apply_row row (fun col => u (col + 1)%Z) - peval c x)
   <= abs_lin_from 0 (pshift c x h) (sup_tol (dir_support nc k i) (pad_row row) rtol))%Q.
Proof.
  intros nc k i row rtol Hc c x h u Hlen Hu H0 H1.
  apply andb_prop in Hc as [Hc Hs]. apply andb_prop in Hc as [Hl _]. apply Z.eqb_eq in Hl.
  rewrite <- apply_row_pad; [|exact H0|rewrite Hl; exact H1].
  apply (sup_row_sound _ _ _ _ Hs c x h u Hlen Hu).
  intros e [E|[E|[]]] _; subst e; assumption.
Qed.
Print Assumptions C11_dir_row_sound.

(* restriction as scaled transpose of a prolongation (Rspace = restr_factor * Pspace.T), entry by entry *)
Theorem C11_scaled_transpose_sound :
  forall R P c, check_scaled_transpose R P c = true ->
  forall i j, (i < length R)%nat -> (j < length P)%nat ->
  (D2Q (nth j (nth i R []) d0) == D2Q c * D2Q (nth i (nth j P []) d0))%Q.
Proof.
  unfold check_scaled_transpose. intros R P c H i j Hi Hj.
  apply andb_prop in H as [H _]. rewrite forallb_forall in H.
  specialize (H _ (In_combine_seq R [] i Hi)). apply andb_prop in H as [H _]. rewrite forallb_forall in H.
  assert (Hin : In ((j, j), nth j P []) (combine (combine (seq 0 (length P)) (seq 0 (length P))) P)).
  { rewrite <- (seq_nth 0 0 Hj) at 1 2. rewrite <- combine_nth by reflexivity.
    apply In_combine_nth; rewrite combine_length, !seq_length; lia. }
  apply H, deqb_spec in Hin. cbn [fst snd] in Hin. rewrite Hin, D2Q_mul. reflexivity.
Qed.
Print Assumptions C11_scaled_transpose_sound.

(* ------------------------------------------------------------------------------------------------
   (5) the supports the rows are validated against ARE the k nearest coarse points.
   Periodic, odd fine index i, even order k <= nc: k entries, distinct columns, every entry is a periodic image
   of its column within distance k-1, and every periodic image of any coarse point within distance k-1 is an entry. *)
Theorem C11_per_support_count : forall nc k i, (0 <= k <= nc)%Z -> Z.even i = false ->
  Z.of_nat (length (per_support nc k i)) = k.
Proof. intros nc k i Hk Hodd. unfold per_support. rewrite Hodd, map_length, zseq_length. lia. Qed.
Print Assumptions C11_per_support_count.

Theorem C11_per_support_distinct : forall nc k i, (0 < nc)%Z -> (0 <= k <= nc)%Z -> (0 <= i < 2 * nc)%Z -> Z.even i = false ->
  NoDup (map fst (per_support nc k i)).
Proof.  (* the k <= nc unwrapped points are closer than nc to each other *)
  intros nc k i Hnc Hk _ Hodd. unfold per_support. rewrite Hodd, map_map. cbn [fst].
  apply NoDup_map_inj_on; [|apply zseq_NoDup].
  intros x y Hx Hy E. apply zseq_In in Hx, Hy. apply (mod_inj_window nc) in E; lia.
Qed.
Print Assumptions C11_per_support_distinct.

Theorem C11_per_support_images : forall nc k i, (0 < nc)%Z -> (0 <= k <= nc)%Z -> Z.even k = true -> Z.even i = false ->
  forall col o, In (col, o) (per_support nc k i) ->
  (0 <= col < nc /\ Z.abs o <= k - 1 /\ exists m, i + o = 2 * col + m * (2 * nc))%Z.
Proof.
  intros nc k i Hnc _ Hke Hodd col o Hin. apply per_support_In in Hin as [r [Hr [-> ->]]]; [|exact Hodd].
  pose proof (Z_half_parity k) as Ek. pose proof (Z_half_parity i) as Ei. rewrite Hke in Ek. rewrite Hodd in Ei.
  split; [apply Z.mod_pos_bound; exact Hnc|]. split; [lia|].
  exists (r / nc)%Z. rewrite (Z.div_mod r nc) at 1 by lia. ring.
Qed.
Print Assumptions C11_per_support_images.

Theorem C11_per_support_nearest : forall nc k i, Z.even k = true -> Z.even i = false ->
  forall col m, (0 <= col < nc)%Z ->
  (Z.abs (2 * col + m * (2 * nc) - i) <= k - 1)%Z -> In (col, (2 * col + m * (2 * nc) - i)%Z) (per_support nc k i).
Proof.
  intros nc k i Hke Hodd col m Hcol Hd. apply per_support_In; [exact Hodd|].
  pose proof (Z_half_parity k) as Ek. pose proof (Z_half_parity i) as Ei. rewrite Hke in Ek. rewrite Hodd in Ei.
  exists (col + m * nc)%Z. split; [lia|]. split; [|lia].
  rewrite Z_mod_plus_full, Z.mod_small; lia.
Qed.
Print Assumptions C11_per_support_nearest.

(* Non-periodic, even fine index i, even order 2 <= k <= nc+1: k distinct points of the padded coarse grid 0..nc+1,
   none of them farther from the fine point than any padded point outside the support *)
Theorem C11_dir_support_count : forall nc k i, (2 <= k <= nc + 1)%Z -> Z.odd i = false ->
  Z.of_nat (length (dir_support nc k i)) = k.
Proof. intros nc k i Hk Heven. unfold dir_support. rewrite Heven, map_length, zseq_length. lia. Qed.
Print Assumptions C11_dir_support_count.

Theorem C11_dir_support_distinct : forall nc k i, Z.odd i = false -> NoDup (map fst (dir_support nc k i)).
Proof.
  intros nc k i Heven. unfold dir_support. rewrite Heven, map_map. cbn [fst].
  apply NoDup_map_inj_on; [|apply zseq_NoDup]. intros x y _ _ E. lia.
Qed.
Print Assumptions C11_dir_support_distinct.

Theorem C11_dir_support_nearest : forall nc k i, (2 <= k <= nc + 1)%Z -> Z.even k = true -> (0 <= i < 2 * nc + 1)%Z -> Z.odd i = false ->
  forall q o q', In (q, o) (dir_support nc k i) ->
  (0 <= q <= nc + 1)%Z /\ o = (2 * q - (i + 1))%Z /\
  ((0 <= q' <= nc + 1)%Z -> ~ In (q', (2 * q' - (i + 1))%Z) (dir_support nc k i) ->
   (Z.abs o <= Z.abs (2 * q' - (i + 1)))%Z).
Proof.  (* the window is centred at the fine point unless that would leave the grid, and then it is pushed against the boundary *)
  intros nc k i Hk Hke Hi Ho q o q'. rewrite !(dir_support_In nc k i) by exact Ho. intros [Hq ->].
  pose proof (Z_half_parity k) as Ek. pose proof (Z_half_parity i) as Ei.
  rewrite Hke in Ek. rewrite <- Z.negb_odd, Ho in Ei. cbn [negb] in Ei.
  lia.
Qed.
Print Assumptions C11_dir_support_nearest.

(* ------------------------------------------------------------------------------------------------
   (6) the helper's neighbour selection (next_neighbors / next_neighbors_periodic): k distinct indices inside the
   array, each preceding every unselected index in the (distance, index) order *)
Theorem C11_next_neighbors_spec : forall p ps k,
  let res := next_neighbors p ps k in
  length res = Nat.min k (length ps) /\ NoDup res /\
  (forall i, In i res -> (0 <= i < Z.of_nat (length ps))%Z) /\
  (forall i j, In i res -> (0 <= j < Z.of_nat (length ps))%Z -> ~ In j res ->
     (Z.abs (getz ps i - p) < Z.abs (getz ps j - p) \/ (Z.abs (getz ps i - p) = Z.abs (getz ps j - p) /\ i < j))%Z).
Proof. exact (fun p => select_nearest_spec (fun t => Z.abs (t - p))). Qed.
Print Assumptions C11_next_neighbors_spec.

Theorem C11_next_neighbors_periodic_spec : forall L p ps k,
  let d t := per_dist L (p mod L) (t - hd 0%Z ps) in
  let res := next_neighbors_periodic L p ps k in
  length res = Nat.min k (length ps) /\ NoDup res /\
  (forall i, In i res -> (0 <= i < Z.of_nat (length ps))%Z) /\
  (forall i j, In i res -> (0 <= j < Z.of_nat (length ps))%Z -> ~ In j res ->
     (d (getz ps i) < d (getz ps j) \/ (d (getz ps i) = d (getz ps j) /\ i < j))%Z).
Proof. exact (fun L p ps => select_nearest_spec (fun t => per_dist L (p mod L) (t - hd 0 ps)) ps). Qed.
Print Assumptions C11_next_neighbors_periodic_spec.

(* ------------------------------------------------------------------------------------------------
   non-vacuity: concrete tables pass the validators (zero tolerance where the numbers are dyadic) *)
Example C11_nonvacuous_node :   (* linear interpolation from nodes {0,1} to {0,1/2,1} *)
  check_node_transfer [[Dy 1 0; Dy 0 0]; [Dy 1 (-1); Dy 1 (-1)]; [Dy 0 0; Dy 1 0]]
                      [Dy 0 0; Dy 1 0] [Dy 0 0; Dy 1 (-1); Dy 1 0] d0 d0 = true.
Proof. vm_compute. reflexivity. Qed.
Print Assumptions C11_nonvacuous_node.

Example C11_nonvacuous_RP :     (* injection after that interpolation *)
  check_RP [[Dy 1 0; Dy 0 0; Dy 0 0]; [Dy 0 0; Dy 0 0; Dy 1 0]]
           [[Dy 1 0; Dy 0 0]; [Dy 1 (-1); Dy 1 (-1)]; [Dy 0 0; Dy 1 0]] 2 d0 = true.
Proof. vm_compute. reflexivity. Qed.
Print Assumptions C11_nonvacuous_RP.

Example C11_nonvacuous_periodic :   (* cubic periodic interpolation, 16 <- 8, the wrapped last row *)
  check_per_row 8 4 15 [Dy 9 (-4); Dy (-1) (-4); Dy 0 0; Dy 0 0; Dy 0 0; Dy 0 0; Dy (-1) (-4); Dy 9 (-4)] d0 = true.
Proof. vm_compute. reflexivity. Qed.
Print Assumptions C11_nonvacuous_periodic.

Example C11_nonvacuous_dirichlet :  (* cubic interpolation next to the left boundary, 7 <- 3: weights 5/16 (dropped), 15/16, -5/16, 1/16 *)
  check_dir_row 3 4 0 [Dy 15 (-4); Dy (-5) (-4); Dy 1 (-4)] d0 = true.
Proof. vm_compute. reflexivity. Qed.
Print Assumptions C11_nonvacuous_dirichlet.

(* the supports and the mirrored selection on concrete instances (the hypotheses of (5) and (6) are satisfiable):
   periodic 16 <- 8, order 4, last fine point: columns 6,7 and the wrapped columns 0,1 at offsets -3,-1,1,3;
   non-periodic 15 <- 7, order 4, first fine point: window 0..3 of the padded grid (0 = boundary value) *)
Example C11_support_instances :
  per_support 8 4 15 = [(6, -3); (7, -1); (0, 1); (1, 3)]%Z /\
  dir_support 7 4 0 = [(0, -1); (1, 1); (2, 3); (3, 5)]%Z /\
  model_row_per_nested 16 [0;1;2;3;4;5;6;7;8;9;10;11;12;13;14;15]%Z [0;2;4;6;8;10;12;14]%Z 4 15
    = [(0, 1); (1, 3); (6, -3); (7, -1)]%Z /\
  next_neighbors 5 [0; 2; 4; 6; 8; 10]%Z 2 = [2; 3]%Z /\
  next_neighbors_periodic 16 15 [0; 2; 4; 6; 8; 10; 12; 14]%Z 4 = [0; 1; 6; 7]%Z.
Proof. vm_compute. repeat split; reflexivity. Qed.
Print Assumptions C11_support_instances.

(* ------------------------------------------------------------------------------------------------
   n-D space transfer: the Kronecker product of two (rectangular) 1-D transfer matrices — entry function kron_rect, compared
   entry-wise with the real 2-D Pspace / Rspace of mesh_to_mesh on non-square grids every run — applies the first factor along
   the first axis and the second factor along the second axis of a row-major grid function, for every shape and every data,
   over any commutative ring. (Repeated application gives any number of dimensions: kron is associative entry-wise.) *)
Section C11_kron.
  Context {K : Type} (kO kI : K) (kadd kmul ksub : K -> K -> K) (kopp : K -> K).
  Hypothesis Rth : ring_theory kO kI kadd kmul ksub kopp (@eq K).
  Theorem C11_kron_acts_per_axis : forall nbr nbc na (A B : nat -> nat -> K) (u : nat -> nat -> K) i j,
    (j < nbr)%nat -> (0 < nbc)%nat ->
    sumn kO kadd (fun c => kmul (kron_rect kmul nbr nbc A B (i * nbr + j) c) (u (c / nbc) (c mod nbc))%nat) (na * nbc)
    = sumn kO kadd (fun a => kmul (A i a) (sumn kO kadd (fun b => kmul (B j b) (u a b)) nbc)) na.
  Proof. intros nbr nbc na A B u i j Hj _. exact (kron_rect_apply kO kI kadd kmul ksub kopp Rth nbr nbc na A B u i j Hj). Qed.
End C11_kron.
Print Assumptions C11_kron_acts_per_axis.
