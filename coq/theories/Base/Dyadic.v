(* Dyadic numbers m * 2^e : the exact image of IEEE doubles, closed under + - *,
   with a ring homomorphism D2Q into Q (QArith), so validators can compute without
   any gcd while their soundness theorems are stated over Q. *)
From Coq Require Import ZArith QArith Qpower Qabs Lia List.
Import ListNotations.
Open Scope Z_scope.

Record dy := Dy { dm : Z; de : Z }.

Definition D2Q (d : dy) : Q := (inject_Z (dm d) * (2 ^ (de d)))%Q.

Definition dalign (a b : dy) : Z * Z * Z :=
  let e := Z.min (de a) (de b) in
  (dm a * 2 ^ (de a - e), dm b * 2 ^ (de b - e), e).

Definition dadd (a b : dy) : dy :=
  let '(x, y, e) := dalign a b in Dy (x + y) e.
Definition dopp (a : dy) : dy := Dy (- dm a) (de a).
Definition dsub (a b : dy) : dy := dadd a (dopp b).
Definition dmul (a b : dy) : dy := Dy (dm a * dm b) (de a + de b).
Definition dabs (a : dy) : dy := Dy (Z.abs (dm a)) (de a).
Definition dleb (a b : dy) : bool :=
  let '(x, y, _) := dalign a b in x <=? y.
Definition dltb (a b : dy) : bool :=
  let '(x, y, _) := dalign a b in x <? y.
Definition deqb (a b : dy) : bool :=
  let '(x, y, _) := dalign a b in x =? y.
Definition dZ (z : Z) : dy := Dy z 0.
Definition d0 : dy := Dy 0 0.
Definition d1 : dy := Dy 1 0.
Definition dpow2 (e : Z) : dy := Dy 1 e.

Fixpoint dpow (a : dy) (n : nat) : dy :=
  match n with O => d1 | S n' => dmul a (dpow a n') end.

Definition dsum (l : list dy) : dy := fold_right dadd d0 l.

(* ------------------------------------------------------------------ *)

Lemma two_neq0 : ~ (2 == 0)%Q.
Proof. intro H. discriminate H. Qed.

Lemma pow2_pos e : (0 < 2 ^ e)%Q.
Proof. apply Qpower_0_lt. reflexivity. Qed.

Lemma shift_Q m k e : 0 <= k ->
  (inject_Z (m * 2 ^ k) * 2 ^ e == inject_Z m * 2 ^ (e + k))%Q.
Proof.
  intros Hk.
  rewrite inject_Z_mult, Zpower_Qpower by assumption.
  rewrite Qpower_plus by exact two_neq0.
  change (inject_Z 2) with 2%Q. ring.
Qed.

Lemma dalign_l a b : let '(x, _, e) := dalign a b in (inject_Z x * 2 ^ e == D2Q a)%Q.
Proof.
  unfold dalign, D2Q. cbv zeta.
  rewrite shift_Q by lia. replace (Z.min (de a) (de b) + (de a - Z.min (de a) (de b))) with (de a) by lia.
  reflexivity.
Qed.

Lemma dalign_r a b : let '(_, y, e) := dalign a b in (inject_Z y * 2 ^ e == D2Q b)%Q.
Proof.
  unfold dalign, D2Q. cbv zeta.
  rewrite shift_Q by lia. replace (Z.min (de a) (de b) + (de b - Z.min (de a) (de b))) with (de b) by lia.
  reflexivity.
Qed.

Lemma D2Q_add a b : (D2Q (dadd a b) == D2Q a + D2Q b)%Q.
Proof.
  pose proof (dalign_l a b) as Hl. pose proof (dalign_r a b) as Hr.
  unfold dadd. destruct (dalign a b) as [[x y] e].
  rewrite <- Hl, <- Hr. unfold D2Q; cbn [dm de]. rewrite inject_Z_plus. ring.
Qed.

Lemma D2Q_opp a : (D2Q (dopp a) == - D2Q a)%Q.
Proof. unfold D2Q, dopp; cbn [dm de]. rewrite inject_Z_opp. ring. Qed.

Lemma D2Q_sub a b : (D2Q (dsub a b) == D2Q a - D2Q b)%Q.
Proof. unfold dsub. rewrite D2Q_add, D2Q_opp. ring. Qed.

Lemma D2Q_mul a b : (D2Q (dmul a b) == D2Q a * D2Q b)%Q.
Proof.
  unfold D2Q, dmul; cbn [dm de]. rewrite inject_Z_mult, Qpower_plus by exact two_neq0. ring.
Qed.

Lemma D2Q_dZ z : (D2Q (dZ z) == inject_Z z)%Q.
Proof. unfold D2Q, dZ; cbn [dm de]. change (2 ^ 0)%Q with 1%Q. ring. Qed.

Lemma D2Q_d0 : (D2Q d0 == 0)%Q.
Proof. reflexivity. Qed.

Lemma D2Q_d1 : (D2Q d1 == 1)%Q.
Proof. reflexivity. Qed.

Lemma D2Q_abs a : (D2Q (dabs a) == Qabs (D2Q a))%Q.
Proof.
  unfold D2Q, dabs; cbn [dm de].
  rewrite Qabs_Qmult. rewrite (Qabs_pos (2 ^ de a)) by (apply Qlt_le_weak, pow2_pos).
  apply Qmult_comp; [|reflexivity].
  unfold Qabs, inject_Z. reflexivity.
Qed.

Lemma inject_Z_le_pow x y e : (x <= y)%Z <-> (inject_Z x * 2 ^ e <= inject_Z y * 2 ^ e)%Q.
Proof.
  split; intros H.
  - apply Qmult_le_compat_r; [rewrite <- Zle_Qle; exact H | apply Qlt_le_weak, pow2_pos].
  - apply Qmult_le_r in H; [rewrite <- Zle_Qle in H; exact H | apply pow2_pos].
Qed.

Lemma inject_Z_lt_pow x y e : (x < y)%Z <-> (inject_Z x * 2 ^ e < inject_Z y * 2 ^ e)%Q.
Proof.
  split; intros H.
  - apply Qmult_lt_compat_r; [apply pow2_pos | rewrite <- Zlt_Qlt; exact H].
  - apply Qmult_lt_r in H; [rewrite <- Zlt_Qlt in H; exact H | apply pow2_pos].
Qed.

Lemma dleb_spec a b : dleb a b = true <-> (D2Q a <= D2Q b)%Q.
Proof.
  pose proof (dalign_l a b) as Hl. pose proof (dalign_r a b) as Hr.
  unfold dleb. destruct (dalign a b) as [[x y] e].
  rewrite <- Hl, <- Hr, Z.leb_le. apply inject_Z_le_pow.
Qed.

Lemma dltb_spec a b : dltb a b = true <-> (D2Q a < D2Q b)%Q.
Proof.
  pose proof (dalign_l a b) as Hl. pose proof (dalign_r a b) as Hr.
  unfold dltb. destruct (dalign a b) as [[x y] e].
  rewrite <- Hl, <- Hr, Z.ltb_lt. apply inject_Z_lt_pow.
Qed.

Lemma deqb_spec a b : deqb a b = true <-> (D2Q a == D2Q b)%Q.
Proof.
  pose proof (dalign_l a b) as Hl. pose proof (dalign_r a b) as Hr.
  unfold deqb. destruct (dalign a b) as [[x y] e].
  rewrite <- Hl, <- Hr, Z.eqb_eq. split; intros H.
  - subst; reflexivity.
  - apply Qmult_inj_r in H; [| intro Hz; pose proof (pow2_pos e) as P; rewrite Hz in P; discriminate P].
    unfold Qeq, inject_Z in H; cbn in H. lia.
Qed.

Lemma D2Q_pow a n : (D2Q (dpow a n) == D2Q a ^ Z.of_nat n)%Q.
Proof.
  induction n as [|n IH].
  - reflexivity.
  - cbn [dpow]. rewrite D2Q_mul, IH, Nat2Z.inj_succ.
    unfold Z.succ. rewrite Qpower_plus'; [|lia]. change (D2Q a ^ 1)%Q with (D2Q a). 
    ring.
Qed.

Lemma D2Q_sum l : (D2Q (dsum l) == fold_right Qplus 0 (map D2Q l))%Q.
Proof.
  induction l as [|a l IH]; cbn [dsum fold_right map].
  - reflexivity.
  - fold (dsum l). rewrite D2Q_add, IH. reflexivity.
Qed.

Lemma dleb_abs_sub_spec x y tol : dleb (dabs (dsub x y)) tol = true <-> (Qabs (D2Q x - D2Q y) <= D2Q tol)%Q.
Proof. rewrite dleb_spec, D2Q_abs, D2Q_sub. reflexivity. Qed.

(* a check scaled by K > 0 to avoid a division bounds the quotient *)
Lemma Qabs_div_bound K m T tau : (0 < K -> Qabs (K * m - T) <= K * tau -> Qabs (m - T / K) <= tau)%Q.
Proof.
  intros HK H.
  assert (HK0 : ~ (K == 0)%Q) by (intro E; rewrite E in HK; discriminate HK).
  setoid_replace (m - T / K)%Q with ((K * m - T) * / K)%Q by (field; exact HK0).
  rewrite Qabs_Qmult. rewrite (Qabs_pos (/ K)) by (apply Qlt_le_weak, Qinv_lt_0_compat; exact HK).
  apply Qle_shift_div_r; [exact HK|]. rewrite (Qmult_comm tau K). exact H.
Qed.

(* two facts about [last] and [removelast], read through [nth] as the tables of dyadics are *)
Lemma last_nth {A} (l : list A) d : last l d = nth (length l - 1) l d.
Proof.
  induction l as [|x l IH]; [reflexivity|]. destruct l as [|y l]; [reflexivity|].
  change (last (x :: y :: l) d) with (last (y :: l) d). rewrite IH. cbn [length]. rewrite !Nat.sub_1_r. reflexivity.
Qed.

Lemma nth_removelast {A} (l : list A) j d : (S j < length l)%nat -> nth j (removelast l) d = nth j l d.
Proof.
  revert j. induction l as [|a l IH]; intros j Hj; [cbn in Hj; lia|].
  destruct l as [|b l]; [cbn in Hj; lia|].
  change (removelast (a :: b :: l)) with (a :: removelast (b :: l)).
  destruct j as [|j]; [reflexivity|]. cbn [nth]. apply IH. cbn in Hj |- *. lia.
Qed.

Lemma Qmult_le_l_weak a x y : (0 <= a -> x <= y -> a * x <= a * y)%Q.
Proof. intros Ha H. rewrite (Qmult_comm a x), (Qmult_comm a y). apply Qmult_le_compat_r; assumption. Qed.
