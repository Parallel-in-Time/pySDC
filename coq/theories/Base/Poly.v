(* Polynomials over Q as coefficient lists (lowest degree first), linear functionals given by
   weighted point evaluations, and the lemma that lets a validator which checks finitely many
   moments conclude a bound for EVERY polynomial below a degree. *)
From Coq Require Import ZArith QArith Qabs Lia List.
From PySDC Require Import Base.Dyadic.
Import ListNotations.
Open Scope Q_scope.

Fixpoint qpow (t : Q) (n : nat) : Q :=
  match n with O => 1 | S n' => t * qpow t n' end.

Definition peval (c : list Q) (x : Q) : Q := fold_right (fun a acc => a + x * acc) 0 c.

Definition qsum (l : list Q) : Q := fold_right Qplus 0 l.

(* weighted point functional  L f = sum_i w_i * f (x_i)  *)
Fixpoint wsum (w x : list Q) (f : Q -> Q) : Q :=
  match w, x with
  | wi :: w', xi :: x' => wi * f xi + wsum w' x' f
  | _, _ => 0
  end.

Definition moment (w x : list Q) (k : nat) : Q := wsum w x (fun t => qpow t k).

(* sum_j c_j * tgt (k + j) *)
Fixpoint lin_from (k : nat) (c : list Q) (tgt : nat -> Q) : Q :=
  match c with [] => 0 | a :: c' => a * tgt k + lin_from (S k) c' tgt end.

Fixpoint abs_lin_from (k : nat) (c : list Q) (tol : nat -> Q) : Q :=
  match c with [] => 0 | a :: c' => Qabs a * tol k + abs_lin_from (S k) c' tol end.

Global Instance qpow_Proper : Proper (Qeq ==> eq ==> Qeq) qpow.
Proof.
  intros x y Hxy n m <-. induction n as [|n IH]; cbn [qpow]; [reflexivity|]. apply Qmult_comp; assumption.
Qed.

Lemma wsum_ext w x f g : (forall t, f t == g t) -> wsum w x f == wsum w x g.
Proof.
  intros H. revert x. induction w as [|wi w IH]; intros [|xi x]; cbn [wsum]; try reflexivity.
  rewrite H, IH. reflexivity.
Qed.

Lemma wsum_add w x f g : wsum w x (fun t => f t + g t) == wsum w x f + wsum w x g.
Proof.
  revert x. induction w as [|wi w IH]; intros [|xi x]; cbn [wsum]; try ring.
  rewrite IH. ring.
Qed.

Lemma wsum_scal w x a f : wsum w x (fun t => a * f t) == a * wsum w x f.
Proof.
  revert x. induction w as [|wi w IH]; intros [|xi x]; cbn [wsum]; try ring.
  rewrite IH. ring.
Qed.

(* L (t^k * p(t)) = sum_j c_j * moment (k+j) *)
Lemma wsum_peval_from w x c : forall k,
  wsum w x (fun t => qpow t k * peval c t) == lin_from k c (moment w x).
Proof.
  induction c as [|a c IH]; intros k; cbn [peval fold_right lin_from].
  - transitivity (wsum w x (fun t => 0 * qpow t k)); [apply wsum_ext; intro; ring|].
    rewrite wsum_scal. ring.
  - transitivity (wsum w x (fun t => a * qpow t k + qpow t (S k) * peval c t)).
    + apply wsum_ext; intro t. unfold peval. cbn [qpow]. ring.
    + rewrite wsum_add, wsum_scal, IH. reflexivity.
Qed.

Lemma wsum_peval w x c : wsum w x (peval c) == lin_from 0 c (moment w x).
Proof.
  rewrite <- wsum_peval_from. apply wsum_ext. intro; cbn [qpow]; ring.
Qed.

Lemma D2Q_dsum l : D2Q (dsum l) == qsum (map D2Q l).
Proof. apply D2Q_sum. Qed.

Lemma qsum_app l1 l2 : qsum (l1 ++ l2) == qsum l1 + qsum l2.
Proof. unfold qsum. induction l1 as [|a l IH]; cbn [app fold_right]; [ring|]. rewrite IH. ring. Qed.

Lemma lin_from_ext c : forall k f g, (forall j, f j == g j) -> lin_from k c f == lin_from k c g.
Proof.
  induction c as [|a c IH]; intros k f g H; cbn [lin_from]; [reflexivity|]. rewrite H, (IH (S k) f g H). reflexivity.
Qed.

Lemma lin_from_sub c : forall k f g,
  lin_from k c (fun j => f j - g j) == lin_from k c f - lin_from k c g.
Proof.
  induction c as [|a c IH]; intros k f g; cbn [lin_from]; [ring|]. rewrite IH. ring.
Qed.

Lemma lin_from_diff_bound c : forall k (m tgt tol : nat -> Q) n,
  (forall j, (k <= j < n)%nat -> Qabs (m j - tgt j) <= tol j) ->
  (k + length c <= n)%nat ->
  Qabs (lin_from k c m - lin_from k c tgt) <= abs_lin_from k c tol.
Proof.
  induction c as [|a c IH]; intros k m tgt tol n H Hlen; cbn [lin_from abs_lin_from length] in *.
  - setoid_replace (0 - 0) with 0 by ring. apply Qle_refl.
  - setoid_replace (a * m k + lin_from (S k) c m - (a * tgt k + lin_from (S k) c tgt))
      with (a * (m k - tgt k) + (lin_from (S k) c m - lin_from (S k) c tgt)) by ring.
    eapply Qle_trans; [apply Qabs_triangle|].
    apply Qplus_le_compat.
    + rewrite Qabs_Qmult. rewrite (Qmult_comm (Qabs a)), (Qmult_comm (Qabs a)).
      apply Qmult_le_compat_r; [apply H; lia | apply Qabs_nonneg].
    + apply (IH (S k) m tgt tol n).
      * intros j Hj. apply H. lia.
      * lia.
Qed.

Lemma peval_ext c x y : x == y -> peval c x == peval c y.
Proof.
  intros H. induction c as [|a c IH]; cbn [peval fold_right]; [reflexivity|].
  fold (peval c x). fold (peval c y). rewrite IH, H. reflexivity.
Qed.

Lemma wsum_map w x (g f : Q -> Q) : wsum w (map g x) f == wsum w x (fun t => f (g t)).
Proof.
  revert x. induction w as [|wi w IH]; intros [|xi x]; cbn [wsum map]; try reflexivity.
  rewrite IH. reflexivity.
Qed.

Lemma D2Q_dpow a n : D2Q (dpow a n) == qpow (D2Q a) n.
Proof.
  induction n as [|n IH]; cbn [dpow qpow]; [reflexivity|]. rewrite D2Q_mul, IH. reflexivity.
Qed.

Lemma lin_from_delta_beyond c : forall k d v, (d < k)%nat ->
  lin_from k c (fun j => if Nat.eqb j d then v else 0) == 0.
Proof.
  induction c as [|b c IH]; intros k d v Hk; cbn [lin_from]; [reflexivity|].
  destruct (Nat.eqb k d) eqn:E; [apply Nat.eqb_eq in E; lia|]. rewrite IH by lia. ring.
Qed.

(* lin_from against a "delta" target picks out one coefficient *)
Lemma lin_from_delta c : forall k d v, (k <= d)%nat ->
  lin_from k c (fun j => if Nat.eqb j d then v else 0) == v * nth (d - k) c 0.
Proof.
  induction c as [|a c IH]; intros k d v Hk; cbn [lin_from].
  - destruct (d - k)%nat; cbn [nth]; ring.
  - destruct (Nat.eqb k d) eqn:E.
    + apply Nat.eqb_eq in E. subst k. replace (d - d)%nat with 0%nat by lia. cbn [nth].
      rewrite lin_from_delta_beyond by lia. ring.
    + apply Nat.eqb_neq in E. rewrite IH by lia.
      replace (d - k)%nat with (S (d - S k)) by lia. cbn [nth]. ring.
Qed.

Lemma peval_cons a c t : peval (a :: c) t = a + t * peval c t.
Proof. reflexivity. Qed.

Lemma peval_lin_from c x : peval c x == lin_from 0 c (qpow x).
Proof.
  enough (H : forall k, qpow x k * peval c x == lin_from k c (qpow x)) by (rewrite <- H; cbn [qpow]; ring).
  induction c as [|a c IH]; intros k; cbn [lin_from]; rewrite ?peval_cons, <- ?IH; cbn [peval fold_right qpow]; ring.
Qed.

Lemma lin_from_add c : forall k (m1 m2 : nat -> Q),
  lin_from k c (fun j => m1 j + m2 j) == lin_from k c m1 + lin_from k c m2.
Proof. induction c as [|a c IH]; intros k m1 m2; cbn [lin_from]; [ring|]. rewrite IH. ring. Qed.

Lemma lin_from_scal c : forall k (q : Q) (m : nat -> Q),
  lin_from k c (fun j => q * m j) == q * lin_from k c m.
Proof. induction c as [|a c IH]; intros k q m; cbn [lin_from]; [ring|]. rewrite IH. ring. Qed.

(* A validator that compares the first n moments of a functional with those of a target functional bounds the
   difference of the two on EVERY polynomial with at most n coefficients. *)
Lemma moment_checks_bound (chk : nat -> bool) (m tgt tol : nat -> Q) n :
  forallb chk (seq 0 n) = true -> (forall k, chk k = true -> Qabs (m k - tgt k) <= tol k) ->
  forall c, (length c <= n)%nat -> Qabs (lin_from 0 c m - lin_from 0 c tgt) <= abs_lin_from 0 c tol.
Proof.
  rewrite forallb_forall. intros Hall Hchk c Hlen.
  apply (lin_from_diff_bound c 0%nat m tgt tol n); [|exact Hlen].
  intros j Hj. apply Hchk, Hall, in_seq. lia.
Qed.

(* nodes x + o h, o an integer offset: the functional in the reference variable t = (y - x) / h *)
Lemma wsum_affine w os x h f :
  wsum w (map (fun o => x + inject_Z o * h) os) f == wsum w (map inject_Z os) (fun t => f (x + t * h)).
Proof. rewrite <- (wsum_map w (map inject_Z os) (fun t => x + t * h) f), map_map. reflexivity. Qed.
