(* Common header: lia over Z, nat and bool, with div/mod (ZifyNat switches the division equations on).
   ZifyBool's post hook, a case split on every boolean constraint in the context, is switched off:
   no goal of the development needs it and it multiplies the cost of every lia call. *)
From Coq Require Export ZArith List Bool Lia ZifyBool ZifyNat.
Export ListNotations.
Ltac Zify.zify_post_hook ::= idtac.
