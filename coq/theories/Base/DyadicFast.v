(* Faster executable variants of the Dyadic operations (alignment by bit shift instead of a
   multiplication with a computed power of two), each proved EQUAL to the reference operation of
   Base/Dyadic.v, so validators can run the fast versions while all theorems about the reference
   operations apply verbatim. *)
From Coq Require Import ZArith QArith Qabs Lia List.
From PySDC Require Import Base.Dyadic.
Import ListNotations.
Open Scope Z_scope.

Definition falign (a b : dy) : Z * Z * Z :=
  let e := Z.min (de a) (de b) in
  (Z.shiftl (dm a) (de a - e), Z.shiftl (dm b) (de b - e), e).

Lemma falign_eq a b : falign a b = dalign a b.
Proof.
  unfold falign, dalign. cbv zeta. rewrite !Z.shiftl_mul_pow2 by lia. reflexivity.
Qed.

Definition fadd (a b : dy) : dy := let '(x, y, e) := falign a b in Dy (x + y) e.
Definition fsub (a b : dy) : dy := fadd a (dopp b).
Definition fleb (a b : dy) : bool := let '(x, y, _) := falign a b in x <=? y.
Definition fltb (a b : dy) : bool := let '(x, y, _) := falign a b in x <? y.

Lemma fadd_eq a b : fadd a b = dadd a b.
Proof. unfold fadd, dadd. rewrite falign_eq. reflexivity. Qed.
Lemma fsub_eq a b : fsub a b = dsub a b.
Proof. unfold fsub, dsub. apply fadd_eq. Qed.
Lemma fleb_eq a b : fleb a b = dleb a b.
Proof. unfold fleb, dleb. rewrite falign_eq. reflexivity. Qed.
Lemma fltb_eq a b : fltb a b = dltb a b.
Proof. unfold fltb, dltb. rewrite falign_eq. reflexivity. Qed.

Lemma fleb_abs_fsub_spec x y tol : fleb (dabs (fsub x y)) tol = true <-> (Qabs (D2Q x - D2Q y) <= D2Q tol)%Q.
Proof. rewrite fleb_eq, fsub_eq. apply dleb_abs_sub_spec. Qed.
