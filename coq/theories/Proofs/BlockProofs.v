(* Proofs about Model/Block.v: a block of time-parallel steps whose fine levels hold their collocation solutions, chained by
   their end values, is a fixed point of EVERY schedule of sweeps, forward transfers, restrictions and prolongations — in
   particular of one MSSDC / MLSDC / PFASST iteration of the controller, for any number of steps and levels, Jacobi or
   Gauss-Seidel coupling (C01: "number of time-parallel steps and coupling may change the iteration counts but never the answer"). *)
From Coq Require Import List Arith Bool Lia Ring.
From PySDC Require Import Model.Sweep Model.Transfer Model.MultiLevel Model.Block
     Proofs.SweepProofs Proofs.TransferProofs Proofs.MultiLevelProofs.
Import ListNotations.

Section BlockProofs.
  Context {K : Type} (kO kI : K) (kadd kmul ksub : K -> K -> K) (kopp : K -> K) (keqb : K -> K -> bool).
  Hypothesis Rth : ring_theory kO kI kadd kmul ksub kopp (@eq K).
  Hypothesis keqb_true : forall a b, keqb a b = true -> a = b.
  Context {X : Type}.
  Variable imex : bool.
  Variable lev : nat -> @level K X.
  Variable xf : nat -> @xfer K X.
  Variable tstart : nat -> K.
  Variable lend : nat -> @endp K.
  Variable P L : nat.                        (* number of steps in the block, number of levels *)
  Notation lvst := (@lvst K X).
  Notation bstate := (@bstate K X).
  Notation np := (nparts imex).
  Notation M l := (lM (lev l)).
  Notation do_op := (do_op kO kadd kmul ksub keqb imex lev xf tstart lend).
  Notation run_ops := (run_ops kO kadd kmul ksub keqb imex lev xf tstart lend).
  Notation uend_of l s := (end_value kO kadd kmul imex lev lend l s).
  Notation restrict_st p l s :=
    (restrict_to kO kadd kmul ksub (tstart p) imex (xf l) (lev l) (lev (S l)) (stau s) (su s, sf s)).
  Notation holds p l tau s := (holds_solution kO kadd kmul ksub (tstart p) imex (lev l) tau s).

  Hypothesis Hlev : forall l, l < L -> level_ok kO kmul ksub keqb imex (lev l) /\ 1 <= M l.
  Hypothesis Hxf : forall l, S l < L ->
    xfer_ok kO kI kadd ksub (xf l) (lev l) (lev (S l)) /\
    (* the last coarse node is the last fine node (right end point): last row of Rcoll is a unit vector *)
    (forall m, 1 <= m <= M l -> xRcoll (xf l) (M (S l)) m = if Nat.eqb m (M l) then kI else kO).

  (* with more than one level the end value is the last node on every level (the controller refuses anything else:
     "For PFASST to work, we assume uend^k = u_M^k"); a single level may use the quadrature end value *)
  Hypothesis Hcopy : 1 < L -> forall l, l < L -> erin (lend l) && negb (edcu (lend l)) = true.

  Lemma lev_ext l : l < L -> feval_ext (lfeval (lev l)).
  Proof. intros Hl. exact (level_ok_ext kO kmul ksub keqb imex _ (proj1 (Hlev l Hl))). Qed.

  (* pointwise equality of level states *)
  Definition eqv (l : nat) (s s' : lvst) : Prop :=
    same (lev l) (su s, sf s) (su s', sf s') /\ teq (M l) (stau s) (stau s') /\
    (forall m, 1 <= m <= M l -> forall x, suold s m x = suold s' m x) /\
    (forall m, 1 <= m <= M l -> forall p x, sfold s m p x = sfold s' m p x).

  Lemma eqv_set_uf l s s' u f ue se v :
    eqv l s s' -> same (lev l) (u, f) (su s, sf s) ->
    eqv l {| su := u; sf := f; stau := stau s; suold := suold s; sfold := sfold s; suend := ue; ssent := se; svalid := v |} s'.
  Proof. intros [E Er] Hr. exact (conj (same_trans (lev l) _ _ _ Hr E) Er). Qed.

  (* the reference block: the fine-level states of the steps and their successive restrictions; only u, f, tau and the old
     copies of a reference entry are ever read (suend, ssent, svalid are placeholders) *)
  Variable R0 : nat -> lvst.
  Fixpoint Ref (p l : nat) : lvst :=
    match l with
    | 0 => R0 p
    | S l' =>
        let s := Ref p l' in
        let G := restrict_st p l' s in
        {| su := Gu G; sf := Gf G; stau := Gtau G; suold := Guold G; sfold := Gfold G;
           suend := Gu G 0; ssent := true; svalid := true |}
    end.

  Hypothesis H0 : forall p, p < P -> holds p 0 (stau (R0 p)) (su (R0 p), sf (R0 p)).
  (* the steps are chained by their END VALUES (last node, or the quadrature end value for a single level) *)
  Hypothesis Hchain : forall p, 0 < p < P -> forall x, su (R0 p) 0 x = uend_of 0 (R0 (p - 1)) x.

  Lemma ref_holds p : p < P -> forall l, l < L -> holds p l (stau (Ref p l)) (su (Ref p l), sf (Ref p l)).
  Proof.
    intros Hp. induction l as [|l IH]; intros Hl; [apply H0; exact Hp|].
    exact (restrict_holds kO kI kadd kmul ksub kopp Rth (tstart p) imex (xf l) (lev l) (lev (S l)) (stau (Ref p l))
             (su (Ref p l), sf (Ref p l)) (proj1 (Hxf l Hl)) (IH ltac:(lia))).
  Qed.

  Lemma end_value_copy l (s : lvst) : erin (lend l) && negb (edcu (lend l)) = true -> uend_of l s = su s (M l).
  Proof. intros H. unfold end_value, end_point. rewrite H. reflexivity. Qed.

  (* the chain of end values holds on every level of the reference block: the unit last row of Rcoll makes the last
     coarse node the restricted last fine node *)
  Lemma ref_chain p : S p < P -> forall l, l < L -> forall x, su (Ref (S p) l) 0 x = uend_of l (Ref p l) x.
  Proof.
    intros Hp. induction l as [|l IH]; intros Hl x.
    { cbn [Ref]. rewrite (Hchain (S p) ltac:(lia) x). cbn [Nat.sub]. rewrite Nat.sub_0_r. reflexivity. }
    assert (HL : 1 < L) by lia.
    destruct (Hxf l Hl) as [(_ & _ & _ & Rext & _) Hunit].
    rewrite (end_value_copy (S l) _ (Hcopy HL (S l) Hl)). cbn [Ref su]. unfold MultiLevel.restrict_to.
    rewrite (restrict_last_node kO kI kadd kmul ksub kopp Rth) by (try exact Hunit; apply Hlev; lia).
    unfold Transfer.restrict. cbn [Gu Nat.eqb fst]. apply Rext. intros y.
    rewrite (IH ltac:(lia) y), (end_value_copy l _ (Hcopy HL l ltac:(lia))). reflexivity.
  Qed.

  Lemma end_value_cong l (s s' : lvst) : 1 <= M l -> eqv l s s' -> forall x, uend_of l s x = uend_of l s' x.
  Proof.
    intros HM ([Eu Ef] & Et & _) x. cbn [fst snd] in Eu, Ef. unfold end_value.
    destruct (erin (lend l) && negb (edcu (lend l))) eqn:E.
    - unfold end_point. rewrite E. apply Eu. lia.
    - rewrite !(end_point_quadrature kO kI kadd kmul ksub kopp Rth) by exact E.
      rewrite (Eu 0), (tauval_teq kO _ _ _ (M l) x Et) by lia. do 3 f_equal.
      apply sumf_ext. intros m Hm. f_equal. apply (ftot_ext kO kadd). intros q. apply Ef. lia.
  Qed.

  (* an entry equals its reference entry pointwise, and what it has sent is the reference end value *)
  Definition ok (p l : nat) (s : lvst) : Prop :=
    eqv l s (Ref p l) /\ (ssent s = true -> forall x, suend s x = uend_of l (Ref p l) x).
  Definition Inv (B : bstate) : Prop :=
    forall p l, p < P -> l < L -> svalid (B p l) = true -> ok p l (B p l).

  (* restrictions / prolongations stay inside the hierarchy *)
  Definition op_in_bounds (o : @op) : Prop :=
    match o with Sweep _ _ | Send _ _ | Recv _ _ => True | Restrict _ l | Prolong _ l => S l < L end.

  Lemma eqv_holds p l s : p < P -> l < L -> eqv l s (Ref p l) -> holds p l (stau s) (su s, sf s).
  Proof.
    intros Hp Hl (E & Et & _).
    exact (holds_solution_ext kO kI kadd kmul ksub kopp Rth (tstart p) imex (lev l) _ _ _ _ (lev_ext l Hl) (ref_holds p Hp l Hl) E Et).
  Qed.

  Lemma bupd_inv B p l s : Inv B -> (p < P -> l < L -> svalid s = true -> ok p l s) -> Inv (bupd B p l s).
  Proof.
    intros HI Hs p' l' Hp' Hl' Hv. unfold bupd in *.
    destruct (Nat.eqb_spec p' p) as [->|]; [destruct (Nat.eqb_spec l' l) as [->|]|]; cbn [andb] in *;
      [apply Hs | apply HI | apply HI]; assumption.
  Qed.

  Lemma do_op_inv B o : op_in_bounds o -> Inv B -> Inv (do_op B o).
  Proof.
    (* every operation rewrites one entry (bupd_inv): what remains is that the new entry, if valid, is ok *)
    intros Hb HI. destruct o as [p l|p l|[|q] l|p l|p l]; cbn [Block.do_op]; [| |exact HI| | |];
      (apply bupd_inv; [exact HI|]); cbn [svalid ssent suend]; intros Hp Hl Hv.
    - (* Sweep: the entry holds its solution, which the sweep reproduces *)
      destruct (HI p l Hp Hl Hv) as [E Hue]. split; [|exact Hue]. apply eqv_set_uf; [exact E|].
      exact (sweep1_fixed kO kI kadd kmul ksub kopp keqb Rth keqb_true (tstart p) imex (lev l) (stau (B p l))
               (su (B p l), sf (B p l)) (proj1 (Hlev l Hl)) (eqv_holds p l _ Hp Hl E)).
    - (* Send *)
      destruct (HI p l Hp Hl Hv) as [E _]. split; [exact E|].
      intros _ x. exact (end_value_cong l _ _ (proj2 (Hlev l Hl)) E x).
    - (* Recv: what the predecessor has sent is the reference end value, which the chain makes the initial value *)
      apply andb_prop in Hv as [Hv1 [Hv2 Hs2]%andb_prop].
      destruct (HI (S q) l Hp Hl Hv1) as [E Hue]. destruct (HI q l ltac:(lia) Hl Hv2) as [_ Hsrc].
      split; [|exact Hue]. apply eqv_set_uf; [exact E|].
      split; cbn [fst snd]; intros m Hm; unfold upd; destruct (Nat.eqb_spec m 0) as [->|]; try reflexivity; [|lia].
      intros x. rewrite (Hsrc Hs2 x), <- (ref_chain q Hp l Hl x). symmetry. apply E. lia.
    - (* Restrict: restriction respects pointwise equality, and stores the coarse values as the old ones too *)
      split; [|intros H; discriminate H].
      destruct (HI p l Hp ltac:(cbn in Hb; lia) Hv) as [(E & Et & _) _].
      destruct (restrict_to_ext kO kI kadd kmul ksub kopp Rth (tstart p) imex (xf l) (lev l) (lev (S l)) _ _ _ _ (proj1 (Hxf l Hb))
                  (lev_ext (S l) Hb) (proj2 (Hlev l ltac:(cbn in Hb; lia))) E Et) as (Gu_eq & Gf_eq & Gt_eq).
      exact (conj (conj (fun m _ => Gu_eq m) (fun m _ => Gf_eq m)) (conj (Gt_eq _) (conj (fun m _ => Gu_eq m) (fun m _ => Gf_eq m)))).
    - (* Prolong: the coarse entry equals its reference, whose old copies are its values *)
      apply andb_prop in Hv as [Hv1 Hv2].
      destruct (HI p l Hp Hl Hv1) as [E Hue]. destruct (HI p (S l) Hp Hb Hv2) as [([Cu Cf] & _ & Co & Cfo) _].
      split; [|exact Hue]. apply eqv_set_uf; [exact E|].
      apply (prolong_same kO kI kadd kmul ksub kopp Rth (tstart p) (xf l) (lev l) (lev (S l)) _ (su (B p l), sf (B p l))
               (proj1 (Hxf l Hb)) (lev_ext l Hl) (proj1 (eqv_holds p l _ Hp Hl E)));
        cbn [Gu Gf Guold Gfold]; intros m Hm.
      + intros y. rewrite (Co m Hm y). apply Cu. lia.
      + intros q y. rewrite (Cfo m Hm q y). apply Cf, Hm.
  Qed.

  Theorem run_ops_inv : forall ops B, Forall op_in_bounds ops -> Inv B -> Inv (run_ops ops B).
  Proof.
    induction ops as [|o ops IH]; intros B Hb HI; cbn [Block.run_ops fold_left]; [exact HI|].
    inversion Hb as [|? ? Ho Hops]; subst.
    apply IH; [exact Hops | apply do_op_inv; assumption].
  Qed.

  (* the block whose fine levels are the given solutions (coarse levels not yet initialised, nothing sent yet) *)
  Definition init_block : bstate :=
    fun p l => match l with
               | 0 => {| su := su (R0 p); sf := sf (R0 p); stau := stau (R0 p); suold := suold (R0 p); sfold := sfold (R0 p);
                         suend := suend (R0 p); ssent := false; svalid := Nat.ltb p P |}
               | S _ => {| su := fun _ _ => kO; sf := fun _ _ _ => kO; stau := fun _ => None; suold := fun _ _ => kO;
                           sfold := fun _ _ _ => kO; suend := fun _ => kO; ssent := false; svalid := false |}
               end.

  Lemma init_inv : Inv init_block.
  Proof.
    intros p [|l] Hp Hl Hv; [|discriminate Hv]. split; [|intros H; discriminate H].
    exact (conj (same_refl _ _) (conj (teq_refl _ _) (conj (fun _ _ _ => eq_refl) (fun _ _ _ _ => eq_refl)))).
  Qed.

  (* MAIN THEOREM: after ANY schedule of sweeps, sends, receives, restrictions and prolongations (inside the hierarchy),
     every step's fine level that is still valid holds the same values and right-hand sides as before *)
  Theorem block_fixed_point_any_schedule ops :
    Forall op_in_bounds ops ->
    forall p, p < P -> 0 < L -> svalid (run_ops ops init_block p 0) = true ->
    same (lev 0) (su (run_ops ops init_block p 0), sf (run_ops ops init_block p 0)) (su (R0 p), sf (R0 p)).
  Proof. intros Hb p Hp HL Hv. exact (proj1 (proj1 (run_ops_inv ops init_block Hb init_inv p 0 Hp HL Hv))). Qed.
End BlockProofs.

(* the controller's schedule stays inside the hierarchy *)
Section Schedule.
  Variable L : nat.
  Notation inb := (op_in_bounds L).
  Lemma flat_map_inb {A : Type} (f : A -> list op) ls : (forall a, In a ls -> Forall inb (f a)) -> Forall inb (flat_map f ls).
  Proof. intros H. apply Forall_flat_map, Forall_forall, H. Qed.
  Lemma map_inb {A : Type} (f : A -> op) ls : (forall a, In a ls -> inb (f a)) -> Forall inb (map f ls).
  Proof. intros H. apply Forall_map, Forall_forall, H. Qed.
  Lemma for_steps_inb P f : (forall p, Forall inb (f p)) -> Forall inb (for_steps P f).
  Proof. intros H. apply flat_map_inb. intros p _. apply H. Qed.
  Lemma repeat_ops_inb n ops : Forall inb ops -> Forall inb (repeat_ops n ops).
  Proof. intros H. induction n as [|n IH]; cbn [repeat_ops]; [constructor | apply Forall_app; split; assumption]. Qed.
  Lemma comm_sweep_inb P l : Forall inb (comm_all P l ++ sweep_all P l).
  Proof. apply Forall_app; split; apply for_steps_inb; intros p; repeat constructor. Qed.
  Lemma iteration_body_in_bounds P nsw jacobi : Forall inb (iteration_body P L nsw jacobi).
  Proof.
    unfold iteration_body. destruct (Nat.ltb_spec 1 L) as [HL|HL].
    - repeat (apply Forall_app; split).
      + apply for_steps_inb; intros p. repeat constructor. cbn. lia.
      + apply flat_map_inb. intros l Hl%in_seq.
        apply Forall_app; split; [apply repeat_ops_inb, comm_sweep_inb|].
        apply for_steps_inb; intros p. repeat constructor. cbn. lia.
      + apply for_steps_inb; intros p; repeat constructor.
      + apply flat_map_inb. intros l Hl%in_rev%in_seq.
        apply Forall_app; split.
        * apply for_steps_inb; intros p. repeat constructor. cbn. lia.
        * destruct (Nat.ltb 0 (l - 1)); [apply repeat_ops_inb, comm_sweep_inb | constructor].
      + apply repeat_ops_inb, comm_sweep_inb.
    - destruct jacobi; [apply repeat_ops_inb, comm_sweep_inb | apply for_steps_inb; intros p; repeat constructor].
  Qed.
  Lemma pfasst_iteration_in_bounds P nsw jacobi : Forall inb (pfasst_iteration P L nsw jacobi).
  Proof.
    unfold pfasst_iteration. apply Forall_app; split; [|apply iteration_body_in_bounds].
    apply for_steps_inb; intros p; repeat constructor.
  Qed.
  Lemma predict_ops_in_bounds P pt : Forall inb (predict_ops P L pt).
  Proof.
    destruct pt; cbn [predict_ops]; [constructor | apply for_steps_inb; intros p; repeat constructor |].
    unfold burnin_ops. repeat (apply Forall_app; split).
    - apply for_steps_inb; intros p. apply map_inb. intros l Hl%in_seq. cbn. lia.
    - apply flat_map_inb. intros q _. apply Forall_app; split; apply flat_map_inb; intros p _; repeat constructor.
    - apply for_steps_inb; intros p. apply Forall_app; split; [|repeat constructor].
      apply map_inb. intros l Hl%in_rev%in_seq. cbn. lia.
    - apply for_steps_inb; intros p; repeat constructor.
  Qed.
End Schedule.

(* validity / sent flags evolve independently of the numerical data: they can be computed on booleans alone *)
Definition flst := ((nat -> nat -> bool) * (nat -> nat -> bool))%type.     (* (valid, sent) *)
Definition fset (F : nat -> nat -> bool) (p l : nat) (b : bool) : nat -> nat -> bool :=
  fun p' l' => if Nat.eqb p' p && Nat.eqb l' l then b else F p' l'.
(* every operation rewrites the two flags of one entry *)
Definition fupd (FS : flst) (p l : nat) (v e : bool) : flst := (fset (fst FS) p l v, fset (snd FS) p l e).
Definition fl_op (FS : flst) (o : op) : flst :=
  let F := fst FS in
  let S_ := snd FS in
  match o with
  | Sweep p l => fupd FS p l (F p l) (S_ p l)
  | Send p l => fupd FS p l (F p l) (F p l)
  | Recv 0 _ => FS
  | Recv (S q as p) l => fupd FS p l (F p l && (F q l && S_ q l)) (S_ p l)
  | Restrict p l => fupd FS p (S l) (F p l) false
  | Prolong p l => fupd FS p l (F p l && F p (S l)) (S_ p l)
  end.
(* the flags of init_block *)
Definition init_flags (P : nat) : flst := (fun p l => match l with 0 => Nat.ltb p P | S _ => false end, fun _ _ => false).


(* the flags of the block are those fl_op computes *)
Section Flags.
  Context {K : Type} (kO : K) (kadd kmul ksub : K -> K -> K) (keqb : K -> K -> bool).
  Context {X : Type}.
  Variable imex : bool.
  Variable lev : nat -> @level K X.
  Variable xf : nat -> @xfer K X.
  Variable tstart : nat -> K.
  Variable lend : nat -> @endp K.
  Notation do_op := (do_op kO kadd kmul ksub keqb imex lev xf tstart lend).
  Notation run_ops := (run_ops kO kadd kmul ksub keqb imex lev xf tstart lend).

  Definition flags_of (B : @bstate K X) (FS : flst) : Prop :=
    forall p l, svalid (B p l) = fst FS p l /\ ssent (B p l) = snd FS p l.

  Lemma flags_bupd (B : @bstate K X) FS p l s v e :
    flags_of B FS -> svalid s = v -> ssent s = e -> flags_of (bupd B p l s) (fupd FS p l v e).
  Proof. intros HF <- <- p' l'. unfold bupd, fupd, fset. cbn [fst snd]. destruct (_ && _); [split; reflexivity | apply HF]. Qed.

  (* the entry an operation writes gets flags that are the same function of the old flags in the block and in fl_op *)
  Lemma flags_do_op (B : @bstate K X) FS o : flags_of B FS -> flags_of (do_op B o) (fl_op FS o).
  Proof.
    intros HF. destruct o as [p l|p l|[|q] l|p l|p l]; cbn [Block.do_op fl_op]; try exact HF;
      (apply flags_bupd; [exact HF | |]); cbn [svalid ssent]; rewrite ?(proj1 (HF _ _)), ?(proj2 (HF _ _)); reflexivity.
  Qed.

  Lemma flags_run_ops ops : forall (B : @bstate K X) FS, flags_of B FS -> flags_of (run_ops ops B) (fold_left fl_op ops FS).
  Proof.
    induction ops as [|o ops IH]; intros B FS HF; cbn [Block.run_ops fold_left]; [exact HF|].
    apply IH. apply flags_do_op. exact HF.
  Qed.

  Lemma init_flags_of P (R0 : nat -> @lvst K X) : flags_of (init_block kO P R0) (init_flags P).
  Proof. intros p [|l]; split; reflexivity. Qed.
End Flags.

(* the controller's schedule keeps every entry valid *)
Section ScheduleValid.
  Variable P : nat.
  Notation runf ops FS := (fold_left fl_op ops FS).

  (* the entries (p, l) of the steps p < P with D p l are valid *)
  Definition Val (D : nat -> nat -> Prop) (FS : flst) : Prop := forall p l, p < P -> D p l -> fst FS p l = true.
  (* every step is valid on the levels 0..k ... *)
  Definition Vk (k : nat) : flst -> Prop := Val (fun _ l => l <= k).
  (* ... and the steps a..j-1 have sent on level c *)
  Definition VS (k c a j : nat) (FS : flst) : Prop := Vk k FS /\ forall q, a <= q < j -> snd FS q c = true.

  Lemma Vk_VS k c a FS : Vk k FS -> VS k c a a FS.
  Proof. intros HV. split; [exact HV | intros q Hq; lia]. Qed.
  Lemma VS_Vk k c a j FS : VS k c a j FS -> Vk k FS.
  Proof. intros H. apply H. Qed.
  Lemma Vk_mono k k' FS : k' <= k -> Vk k FS -> Vk k' FS.
  Proof. intros Hk HV p l Hp Hl. apply HV; [exact Hp | cbn in *; lia]. Qed.
  Lemma Val_Vk (D : nat -> nat -> Prop) k FS : (forall p l, p < P -> l <= k -> D p l) -> Val D FS -> Vk k FS.
  Proof. intros HD HV p l Hp Hl. apply HV; [exact Hp | apply HD; assumption]. Qed.
  Lemma init_Vk : Vk 0 (init_flags P).
  Proof. apply (Val_Vk (fun _ l => l = 0)); [intros p l _ Hl; lia|]. intros p l Hp ->. apply Nat.ltb_lt, Hp. Qed.

  Lemma loop_seq (I : nat -> flst -> Prop) (body : nat -> list op) n : forall a FS,
    (forall j FS', a <= j < a + n -> I j FS' -> I (S j) (runf (body j) FS')) ->
    I a FS -> I (a + n) (runf (flat_map body (seq a n)) FS).
  Proof.
    induction n as [|n IH]; intros a FS Hb H; cbn [seq flat_map fold_left]; [rewrite Nat.add_0_r; exact H|].
    rewrite fold_left_app, <- Nat.add_succ_comm. apply IH; [intros j FS' Hj; apply Hb; lia | apply Hb; [lia | exact H]].
  Qed.

  Lemma loop_steps (I : nat -> flst -> Prop) body FS :
    (forall j FS', j < P -> I j FS' -> I (S j) (runf (body j) FS')) -> I 0 FS -> I P (runf (for_steps P body) FS).
  Proof. intros Hb. apply (loop_seq I body P 0). intros j FS' Hj. apply Hb. lia. Qed.

  (* the index-free form, over any list *)
  Lemma loop_list {A : Type} (I : flst -> Prop) (body : A -> list op) ls : forall FS,
    (forall x FS', In x ls -> I FS' -> I (runf (body x) FS')) -> I FS -> I (runf (flat_map body ls) FS).
  Proof.
    induction ls as [|x ls IH]; intros FS Hb H; cbn [flat_map fold_left]; [exact H|].
    rewrite fold_left_app. apply IH; [intros y FS' Hy; apply Hb; right; exact Hy | apply Hb; [left; reflexivity | exact H]].
  Qed.

  Lemma loop_repeat (I : flst -> Prop) ops n : forall FS, (forall FS', I FS' -> I (runf ops FS')) -> I FS -> I (runf (repeat_ops n ops) FS).
  Proof. induction n as [|n IH]; intros FS Hb H; cbn [repeat_ops fold_left]; [exact H|]. rewrite fold_left_app. apply IH, Hb, H. exact Hb. Qed.

  Lemma map_as_flat_map {A B : Type} (f : A -> B) ls : map f ls = flat_map (fun x => [f x]) ls.
  Proof. induction ls as [|x ls IH]; cbn [map flat_map app]; congruence. Qed.

  Lemma fset_true F p l b p' l' :
    (p' = p -> l' = l -> b = true) -> (p' <> p \/ l' <> l -> F p' l' = true) -> fset F p l b p' l' = true.
  Proof. intros Hb HF. unfold fset. destruct (Nat.eqb_spec p' p); [destruct (Nat.eqb_spec l' l)|]; cbn [andb]; auto. Qed.

  (* rewriting the flags of the entry (p, l) keeps the invariant if the new flags are true where the invariant speaks of them *)
  Lemma VS_fupd k c a j FS p l v e :
    VS k c a j FS -> (p < P -> l <= k -> v = true) -> (a <= p < j -> l = c -> e = true) -> VS k c a j (fupd FS p l v e).
  Proof.
    intros [HV HS] Hv He. split.
    - intros p' l' Hp Hl. apply fset_true; [intros -> -> | intros _; apply HV]; auto.
    - intros q Hq. apply fset_true; [intros -> -> | intros _; apply HS]; auto.
  Qed.

  Lemma VS_sweep k c a j FS p l : VS k c a j FS -> VS k c a j (fl_op FS (Sweep p l)).
  Proof. intros H. apply VS_fupd; [exact H | apply (proj1 H) | intros Hp ->; apply (proj2 H), Hp]. Qed.

  (* the next step sends *)
  Lemma VS_send k c a j FS : VS k c a j FS -> j < P -> c <= k -> VS k c a (S j) (fl_op FS (Send j c)).
  Proof.
    intros [HV HS] Hj Hc. split.
    - intros p' l' Hp Hl. apply fset_true; intros; apply HV; assumption.
    - intros q Hq. apply fset_true; [intros; apply HV; assumption | intros Hne; apply HS; lia].
  Qed.

  (* a step whose predecessor has sent receives *)
  Lemma VS_recv k c a j FS p : VS k c a j FS -> c <= k -> p = 0 \/ a < p <= j -> VS k c a j (fl_op FS (Recv p c)).
  Proof.
    intros [HV HS] Hc Hp. destruct p as [|q]; [exact (conj HV HS)|].
    apply VS_fupd; [exact (conj HV HS) | | intros Hq _; apply HS, Hq].
    intros HP _. rewrite (HV (S q) c), (HV q c), (HS q) by (cbn; lia). reflexivity.
  Qed.

  Lemma VS_prolong k c a j FS p l : VS k c a j FS -> S l <= k -> VS k c a j (fl_op FS (Prolong p l)).
  Proof.
    intros [HV HS] Hl. apply VS_fupd; [exact (conj HV HS) | | intros Hq ->; apply HS, Hq].
    intros HP _. rewrite (HV p l), (HV p (S l)) by (cbn; lia). reflexivity.
  Qed.

  (* a restriction makes (p, l+1) as valid as (p, l) *)
  Lemma Val_restrict (D D' : nat -> nat -> Prop) FS p l :
    Val D FS -> (D' p (S l) -> D p l) -> (forall p' l', p' <> p \/ l' <> S l -> D' p' l' -> D p' l') ->
    Val D' (fl_op FS (Restrict p l)).
  Proof. intros HV H1 H2 p' l' Hp HD. apply fset_true; [intros -> -> | intros Hne]; apply HV; auto. Qed.

  Lemma comm_all_Vk k l FS : l <= k -> Vk k FS -> Vk k (runf (comm_all P l) FS).
  Proof.
    intros Hl HV. apply (VS_Vk k l 0 P), (loop_steps (VS k l 0)); [|apply Vk_VS, HV].
    intros j FS' Hj H. apply VS_recv; [apply VS_send; [exact H | lia | exact Hl] | exact Hl | lia].
  Qed.

  (* recv + sweep + send on level l for every step (Gauss-Seidel) *)
  Lemma coarse_loop_Vk k l FS : l <= k -> Vk k FS -> Vk k (runf (for_steps P (fun p => [Recv p l; Sweep p l; Send p l])) FS).
  Proof.
    intros Hl HV. apply (VS_Vk k l 0 P), (loop_steps (VS k l 0)); [|apply Vk_VS, HV].
    intros j FS' Hj H. apply VS_send; [apply VS_sweep, VS_recv; [exact H | exact Hl | lia] | lia | exact Hl].
  Qed.

  Lemma sweep_all_Vk k l FS : Vk k FS -> Vk k (runf (sweep_all P l) FS).
  Proof.
    apply (loop_list (Vk k) (fun p => [Sweep p l])). intros p FS' _ H. exact (VS_Vk k 0 0 0 _ (VS_sweep k 0 0 0 FS' p l (Vk_VS k 0 0 FS' H))).
  Qed.

  Lemma repeat_comm_sweep_Vk k l n FS : l <= k -> Vk k FS -> Vk k (runf (repeat_ops n (comm_all P l ++ sweep_all P l)) FS).
  Proof.
    intros Hl. apply loop_repeat. intros FS' HV. rewrite fold_left_app. apply sweep_all_Vk, comm_all_Vk; assumption.
  Qed.

  Lemma restrict_all_Vk k FS : Vk k FS -> Vk (S k) (runf (for_steps P (fun p => [Restrict p k])) FS).
  Proof.
    intros HV. pose (D := fun j p l => l <= k \/ (l = S k /\ p < j)).
    apply (Val_Vk (D P)); [unfold D; lia|]. apply (loop_steps (fun j => Val (D j))).
    - intros j FS' Hj H. apply (Val_restrict (D j)); [exact H | unfold D; lia | unfold D; intros p' l'; lia].
    - intros p l Hp Hd. apply HV; [exact Hp | unfold D in Hd; cbn; lia].
  Qed.

  Lemma prolong_all_Vk k l FS : S l <= k -> Vk k FS -> Vk k (runf (for_steps P (fun p => [Prolong p l])) FS).
  Proof.
    intros Hl. apply (loop_list (Vk k) (fun p => [Prolong p l])). intros p FS' _ H.
    exact (VS_Vk k 0 0 0 _ (VS_prolong k 0 0 0 FS' p l (Vk_VS k 0 0 FS' H) Hl)).
  Qed.

  (* it_down: level 0 is restricted, then the levels 1 .. L-2 are swept and restricted in turn *)
  Lemma it_down_Vk L nsw FS : 1 < L -> Vk 0 FS -> Vk (L - 1) (runf (it_down_ops P L nsw) FS).
  Proof.
    intros HL HV. unfold it_down_ops. rewrite fold_left_app. replace (L - 1) with (1 + (L - 2)) by lia.
    apply (loop_seq Vk); [|apply restrict_all_Vk, HV].
    intros l FS' _ HV'. rewrite fold_left_app. apply restrict_all_Vk, repeat_comm_sweep_Vk; [lia | exact HV'].
  Qed.

  Lemma it_up_Vk L nsw FS : Vk (L - 1) FS -> Vk (L - 1) (runf (it_up_ops P L nsw) FS).
  Proof.
    apply loop_list. intros l FS' Hl%in_rev%in_seq HV. rewrite fold_left_app.
    apply (prolong_all_Vk (L - 1) (l - 1)) in HV; [|lia].
    destruct (Nat.ltb 0 (l - 1)); [apply repeat_comm_sweep_Vk; [lia | exact HV] | exact HV].
  Qed.

  Theorem pfasst_iteration_valid L nsw jacobi FS :
    Vk 0 FS -> Vk (L - 1) (runf (pfasst_iteration P L nsw jacobi) FS).
  Proof.
    intros HV. unfold pfasst_iteration, iteration_body. rewrite fold_left_app.
    apply (comm_all_Vk 0 0 FS (le_n 0)) in HV. fold (it_check_ops P) in HV.
    destruct (Nat.ltb_spec 1 L) as [HL|HL].
    - rewrite !fold_left_app. unfold it_fine_ops. apply repeat_comm_sweep_Vk; [lia|].
      apply it_up_Vk, coarse_loop_Vk; [lia|]. apply it_down_Vk; assumption.
    - replace (L - 1) with 0 by lia.
      destruct jacobi; [apply repeat_comm_sweep_Vk | apply coarse_loop_Vk]; (lia || exact HV).
  Qed.

  Lemma iterations_valid L nsw jacobi n FS : Vk 0 FS -> Vk 0 (runf (repeat_ops n (pfasst_iteration P L nsw jacobi)) FS).
  Proof.
    apply loop_repeat. intros FS' HV. apply (Vk_mono (L - 1) 0); [lia|]. apply pfasst_iteration_valid, HV.
  Qed.

  (* every step in turn is restricted through all levels: step j is valid down to level i, the steps before it on all levels *)
  Lemma restrict_all_levels_Vk L FS : Vk 0 FS ->
    Vk (L - 1) (runf (for_steps P (fun p => map (fun l => Restrict p l) (seq 0 (L - 1)))) FS).
  Proof.
    intros HV. pose (D := fun j i p l => l = 0 \/ (l <= L - 1 /\ p < j) \/ (p = j /\ l <= i)).
    apply (Val_Vk (D P 0)); [unfold D; lia|]. apply (loop_steps (fun j => Val (D j 0))).
    - intros j FS' Hj H. rewrite map_as_flat_map.
      apply (loop_seq (fun i => Val (D j i)) (fun l => [Restrict j l]) (L - 1) 0) in H.
      + intros p l Hp Hd. apply H; [exact Hp | unfold D in *; lia].
      + intros i FS'' Hi H'. apply (Val_restrict (D j i)); [exact H' | unfold D; lia | unfold D; intros p' l'; lia].
    - intros p l Hp Hd. apply HV; [exact Hp | unfold D in Hd; cbn; lia].
  Qed.

  (* the staircase of the burn-in on level c: round q sweeps and sends steps q.., then steps q+1.. receive *)
  Lemma staircase_round_Vk k c q FS : c <= k -> Vk k FS ->
    Vk k (runf (flat_map (fun p => [Sweep p c; Send p c]) (seq q (P - q)) ++ flat_map (fun p => [Recv p c]) (seq (S q) (P - S q))) FS).
  Proof.
    intros Hc HV. rewrite fold_left_app. apply (VS_Vk k c q (q + (P - q))).
    apply (loop_seq (fun _ => VS k c q (q + (P - q))) (fun p => [Recv p c]) (P - S q) (S q)).
    - intros j FS' Hj H. apply VS_recv; [exact H | exact Hc | lia].
    - apply (loop_seq (VS k c q) (fun p => [Sweep p c; Send p c])); [|apply Vk_VS, HV].
      intros j FS' Hj H. apply VS_send; [apply VS_sweep, H | lia | exact Hc].
  Qed.

  (* prolong one step from the coarsest level up, then send + recv on the fine level, for every step in order *)
  Lemma up_and_comm_Vk L FS : Vk (L - 1) FS ->
    Vk (L - 1) (runf (for_steps P (fun p => map (fun l => Prolong p (l - 1)) (rev (seq 1 (L - 1))) ++ [Send p 0; Recv p 0])) FS).
  Proof.
    intros HV. apply (VS_Vk (L - 1) 0 0 P), (loop_steps (VS (L - 1) 0 0)); [|apply Vk_VS, HV].
    intros j FS' Hj H. rewrite fold_left_app, map_as_flat_map.
    apply VS_recv; [apply VS_send; [|lia|lia] | lia | lia].
    revert H. apply loop_list. intros l FS'' Hl%in_rev%in_seq H. apply VS_prolong; [exact H | lia].
  Qed.

  Theorem predict_ops_valid L pt FS : Vk 0 FS -> Vk 0 (runf (predict_ops P L pt) FS).
  Proof.
    intros HV. destruct pt; cbn [predict_ops fold_left]; [exact HV | apply sweep_all_Vk; exact HV |].
    unfold burnin_ops. rewrite !fold_left_app.
    apply (Vk_mono (L - 1) 0); [lia|].
    apply sweep_all_Vk, up_and_comm_Vk, (loop_seq (fun _ => Vk (L - 1))); [|apply restrict_all_levels_Vk, HV].
    intros q FS' _. apply staircase_round_Vk. lia.
  Qed.
End ScheduleValid.

Lemma flags_valid {K X : Type} kO kadd kmul ksub keqb imex lev xf tstart lend P (R0 : nat -> @lvst K X) ops p :
  Vk P 0 (fold_left fl_op ops (init_flags P)) -> p < P ->
  svalid (run_ops kO kadd kmul ksub keqb imex lev xf tstart lend ops (init_block kO P R0) p 0) = true.
Proof.
  intros HV Hp. rewrite (proj1 (flags_run_ops kO kadd kmul ksub keqb imex lev xf tstart lend ops _ _ (init_flags_of kO P R0) p 0)).
  apply HV; [exact Hp | apply le_n].
Qed.
