(* C02 (extension) — proofs about Model/SweepMultistep.v (MultiStep sweeper and its Cache).
   K: any commutative ring; eval_f and solve_system arbitrary functions subject to the solver contract. *)
From Coq Require Import List Arith Bool Lia Ring.
From PySDC Require Import Model.Sweep Model.SweepMultistep Proofs.SweepProofs.
Import ListNotations.

Section MultistepProofs.
  Context {K : Type} (kO kI : K) (kadd kmul ksub : K -> K -> K) (kopp : K -> K) (khalf : K -> K).
  Hypothesis Rth : ring_theory kO kI kadd kmul ksub kopp (@eq K).
  Add Ring KringMS : Rth.
  Context {X : Type}.
  Notation V := (X -> K).
  Local Infix "+!" := kadd (at level 50, left associativity).
  Local Infix "*!" := kmul (at level 40, left associativity).
  Local Infix "-!" := ksub (at level 50, left associativity).
  Variable feval : V -> K -> V.
  Variable solve : V -> K -> V -> K -> V.
  Notation sumf := (sumf kO kadd).
  Notation rearrange := (rearrange kO kI kadd kmul ksub kopp Rth).
  Notation fold_sub_add_spec := (fold_sub_add_spec kO kI kadd kmul ksub kopp Rth).
  Notation sumf_sub := (sumf_sub kO kI kadd kmul ksub kopp Rth).
  Notation sumf_scal := (sumf_scal kO kI kadd kmul ksub kopp Rth).
  Notation entry := (@ms_entry K X).
  Notation dummy := (@ms_dummy K kO X).
  Notation point t u := {| e_t := t; e_u := u; e_f := feval u t |}.

  (* contract of prob.solve_system:  u - factor * f(u, t) = rhs  (pointwise) *)
  Definition ms_solver_contract : Prop :=
    forall rhs a g t x, solve rhs a g t x -! a *! feval (solve rhs a g t) t x = rhs x.

  Section General.
    Variable alpha beta : list K.
    Variable starter : ms_starter.
    Notation dts := (ms_dts kO ksub alpha).
    Notation rhs_of := (ms_rhs kO kadd kmul ksub alpha beta).
    Notation update := (ms_update kO kadd kmul ksub khalf feval solve alpha beta starter).
    Notation al i := (nth i alpha kO).
    Notation be i := (nth i beta kO).

    Lemma ms_rhs_spec (es : list entry) time x :
      rhs_of es time x =
      sumf (fun i => dts es time i *! be i *! e_f (nth i es dummy) x -! al i *! e_u (nth i es dummy) x) 0 (length alpha).
    Proof.
      unfold ms_rhs. rewrite fold_sub_add_spec. unfold vzero, vscale. ring.
    Qed.

    (* update_nodes() with a full cache: the linear multistep formula with the cache's own step sizes
         u_new + sum_i alpha_i u_i - dt*beta_last*f(u_new, t+dt) = sum_i dts_i beta_i f_i,
       stored f is f at the new time and value, the cache is shifted by one and holds (t+dt, u_new, f_new) last.
       (The level's u[0] is not used: the guess and the history come from the cache only.) *)
    Theorem ms_update_full_form (c : ms_cache) (es : list entry) t0 dt u0 f0 :
      ms_solver_contract -> all_some c = Some es ->
      exists u1 : V,
        let time := t0 +! dt in
        update c t0 dt u0 f0 = MsOk (cache_update c {| e_t := time; e_u := u1; e_f := feval u1 time |}, u1, feval u1 time) /\
        u1 = solve (rhs_of es time) (dt *! last beta kO) (e_u (last es dummy)) time /\
        forall x,
          u1 x +! sumf (fun i => al i *! e_u (nth i es dummy) x) 0 (length alpha) -! dt *! last beta kO *! feval u1 time x
          = sumf (fun i => dts es time i *! be i *! e_f (nth i es dummy) x) 0 (length alpha).
    Proof.
      intros Hc Hes. eexists. cbv zeta. split; [|split; [reflexivity|]].
      - unfold ms_update. rewrite Hes. reflexivity.
      - intros x.
        pose proof (Hc (rhs_of es (t0 +! dt)) (dt *! last beta kO) (e_u (last es dummy)) (t0 +! dt) x) as H.
        rewrite ms_rhs_spec, sumf_sub in H. apply rearrange with (1 := H). ring.
    Qed.

    (* equal step sizes in the cache: the textbook form  u_new + sum alpha_i u_i = dt (sum beta_i f_i + beta_last f_new) *)
    Corollary ms_update_uniform_form (c : ms_cache) (es : list entry) t0 dt u0 f0 :
      ms_solver_contract -> all_some c = Some es ->
      (forall i, i < length alpha -> dts es (t0 +! dt) i = dt) ->
      exists u1 : V,
        update c t0 dt u0 f0 = MsOk (cache_update c {| e_t := t0 +! dt; e_u := u1; e_f := feval u1 (t0 +! dt) |}, u1, feval u1 (t0 +! dt)) /\
        forall x,
          u1 x +! sumf (fun i => al i *! e_u (nth i es dummy) x) 0 (length alpha)
          = dt *! (sumf (fun i => be i *! e_f (nth i es dummy) x) 0 (length alpha) +! last beta kO *! feval u1 (t0 +! dt) x).
    Proof.
      intros Hc Hes Hd. destruct (ms_update_full_form c es t0 dt u0 f0 Hc Hes) as [u1 [E [_ H]]]. cbv zeta in E, H.
      exists u1. split; [exact E|]. intros x. specialize (H x).
      rewrite (sumf_ext kO kadd (fun i => dts es (t0 +! dt) i *! be i *! e_f (nth i es dummy) x)
                 (fun i => dt *! (be i *! e_f (nth i es dummy) x)) 0 (length alpha)) in H
        by (intros i Hi; rewrite Hd by lia; ring).
      rewrite sumf_scal in H. apply rearrange with (1 := H). ring.
    Qed.

    (* update_nodes() with a cache that is not yet full *)
    Theorem ms_update_start_form (c : ms_cache) t0 dt u0 f0 :
      ms_solver_contract -> all_some c = None ->
      match starter, f0 with
      | NoStarter, _ => update c t0 dt u0 f0 = MsErr NotImplementedError
      | Trapezoid, None => update c t0 dt u0 f0 = MsErr TypeErrorNone
      | Trapezoid, Some f =>
          exists u1 : V,
            let time := t0 +! dt in let h := khalf dt in
            update c t0 dt u0 f0 = MsOk (cache_update c {| e_t := time; e_u := u1; e_f := feval u1 time |}, u1, feval u1 time) /\
            forall x, u1 x -! h *! feval u1 time x = u0 x +! h *! f x
      end.
    Proof.
      intros Hc Hn. unfold ms_update. rewrite Hn. destruct starter; [reflexivity|]. destruct f0 as [f|]; [|reflexivity].
      eexists. cbv zeta. split; [reflexivity|]. intros x. rewrite Hc. reflexivity.
    Qed.
  End General.

  Lemma all_some_none_last {A} (l : list (option A)) (a : option A) : all_some (None :: l ++ [a]) = None.
  Proof. reflexivity. Qed.

  (* one-step methods driven over many time steps
     (AdamsBashforthExplicit1Step, BackwardEuler, AdamsMoultonImplicit1Step: alpha = [a0], beta = [b0, b1]) *)
  Section OneStep.
    Variable a0 b0 b1 : K.
    Variable starter : ms_starter.
    Notation run := (ms_run kO kadd kmul ksub khalf feval solve [a0] [b0; b1] starter).
    Notation step := (ms_time_step kO kadd kmul ksub khalf feval solve [a0] [b0; b1] starter).

    Definition ms_inv1 (c : ms_cache) (t : K) (u : V) : Prop :=
      c = [None] \/ c = [Some {| e_t := t; e_u := u; e_f := feval u t |}].

    Fixpoint ms_traj1 (t : K) (u : V) (tr : list (K * V * V)) (ds : list K) : Prop :=
      match tr, ds with
      | [], [] => True
      | (t1, u1, f1) :: tr', dt :: ds' =>
          t1 = t +! dt /\ f1 = feval u1 t1 /\
          (forall x, u1 x +! a0 *! u x -! dt *! b1 *! f1 x = dt *! b0 *! feval u t x) /\
          ms_traj1 t1 u1 tr' ds'
      | _, _ => False
      end.

    Lemma ms_one_step_step c t dt u :
      ms_solver_contract -> ms_inv1 c t u ->
      exists u1, step c t dt u = MsOk ([Some (point (t +! dt) u1)], u1, feval u1 (t +! dt)) /\
                 forall x, u1 x +! a0 *! u x -! dt *! b1 *! feval u1 (t +! dt) x = dt *! b0 *! feval u t x.
    Proof.
      intros Hc Hi.
      (* predict() leaves or puts (t, u, f(u, t)) in the cache; only lvl.f[0] differs, which a full cache does not look at *)
      assert (E : exists f0, step c t dt u
                  = ms_update kO kadd kmul ksub khalf feval solve [a0] [b0; b1] starter [Some (point t u)] t dt u f0)
        by (destruct Hi as [-> | ->]; [exists (Some (feval u t)) | exists None]; reflexivity).
      destruct E as [f0 ->].
      destruct (ms_update_full_form [a0] [b0; b1] starter [Some (point t u)] [point t u] t dt u f0 Hc eq_refl) as [u1 [E1 [_ H]]].
      exists u1. split; [exact E1|]. intros x. specialize (H x). cbn in H. apply rearrange with (1 := H). ring.
    Qed.

    (* every step of a run of a one-step method — the first one included — is the one-step formula
         u_{n+1} + a0 u_n - dt_n b1 f(u_{n+1}, t_{n+1}) = dt_n b0 f(u_n, t_n),
       for all step sizes; the run never fails, and the final cache is again empty or one point with f at that point
       (that it is the LAST point is proved along the way, in ms_one_step_step, but not stated here) *)
    Theorem ms_one_step_run_form : ms_solver_contract -> forall ds c t u,
      ms_inv1 c t u ->
      let '(tr, cf, err) := run c t u ds in
      err = None /\ ms_traj1 t u tr ds /\ exists tl ul, ms_inv1 cf tl ul.
    Proof.
      intros Hc. induction ds as [|dt ds IH]; intros c t u Hi; cbn [ms_run].
      - repeat split. exists t, u. exact Hi.
      - destruct (ms_one_step_step c t dt u Hc Hi) as [u1 [E H]]. rewrite E.
        unfold ms_end_point.
        specialize (IH [Some (point (t +! dt) u1)] (t +! dt) u1 (or_intror eq_refl)).
        destruct (run [Some (point (t +! dt) u1)] (t +! dt) u1 ds) as [[tr cf] err].
        destruct IH as [Ie [It Ic]]. split; [exact Ie|]. split; [|exact Ic].
        cbn [ms_traj1]. repeat split; [exact H | exact It].
    Qed.
  End OneStep.

  (* two-step methods with the trapezoidal starter
     (AdamsMoultonImplicit2Step: alpha = [a0, a1], beta = [b0, b1, b2]) driven over many time steps *)
  Section TwoStep.
    Variable a0 a1 b0 b1 b2 : K.
    Notation run := (ms_run kO kadd kmul ksub khalf feval solve [a0; a1] [b0; b1; b2] Trapezoid).
    Notation step := (ms_time_step kO kadd kmul ksub khalf feval solve [a0; a1] [b0; b1; b2] Trapezoid).

    (* steps n >= 2: prev is the point before (t, u) *)
    Fixpoint ms_traj2 (prev : entry) (t : K) (u : V) (tr : list (K * V * V)) (ds : list K) : Prop :=
      match tr, ds with
      | [], [] => True
      | (t1, u1, f1) :: tr', dt :: ds' =>
          t1 = t +! dt /\ f1 = feval u1 t1 /\
          (forall x, u1 x +! a0 *! e_u prev x +! a1 *! u x -! dt *! b2 *! f1 x
                     = (t -! e_t prev) *! b0 *! e_f prev x +! dt *! b1 *! feval u t x) /\
          ms_traj2 (point t u) t1 u1 tr' ds'
      | _, _ => False
      end.

    Lemma ms_two_step_step (prev : entry) t dt u :
      ms_solver_contract ->
      exists u1, step [Some prev; Some (point t u)] t dt u
                 = MsOk ([Some (point t u); Some (point (t +! dt) u1)], u1, feval u1 (t +! dt)) /\
                 forall x, u1 x +! a0 *! e_u prev x +! a1 *! u x -! dt *! b2 *! feval u1 (t +! dt) x
                           = (t -! e_t prev) *! b0 *! e_f prev x +! dt *! b1 *! feval u t x.
    Proof.
      intros Hc. unfold ms_time_step. cbn [ms_predict forallb is_none andb].
      destruct (ms_update_full_form [a0; a1] [b0; b1; b2] Trapezoid [Some prev; Some (point t u)] [prev; point t u] t dt u None Hc eq_refl)
        as [u1 [E1 [_ H]]].
      cbv zeta in E1, H. exists u1. split; [exact E1|]. intros x. specialize (H x). cbn in H.
      apply rearrange with (1 := H). ring.
    Qed.

    Lemma ms_two_step_rest : ms_solver_contract -> forall ds prev t u,
      let '(tr, cf, err) := run [Some prev; Some (point t u)] t u ds in
      err = None /\ ms_traj2 prev t u tr ds.
    Proof.
      intros Hc. induction ds as [|dt ds IH]; intros prev t u; cbn [ms_run].
      - split; reflexivity.
      - destruct (ms_two_step_step prev t dt u Hc) as [u1 [E H]]. rewrite E. unfold ms_end_point.
        specialize (IH (point t u) (t +! dt) u1).
        destruct (run [Some (point t u); Some (point (t +! dt) u1)] (t +! dt) u1 ds) as [[tr cf] err].
        destruct IH as [Ie It]. split; [exact Ie|].
        cbn [ms_traj2]. repeat split; [exact H | exact It].
    Qed.

    (* a run from the empty cache: the first step is the trapezoidal rule (the starter), every later step is the two-step
       formula with the cache's step sizes
         u_{n+1} + a0 u_{n-1} + a1 u_n - dt_n b2 f_{n+1} = (t_n - t_{n-1}) b0 f_{n-1} + dt_n b1 f_n ,
       and the run never fails *)
    Theorem ms_two_step_run_form : ms_solver_contract -> forall dt0 ds t u,
      let '(tr, cf, err) := run [None; None] t u (dt0 :: ds) in
      err = None /\
      match tr with
      | [] => False
      | (t1, u1, f1) :: tr' =>
          t1 = t +! dt0 /\ f1 = feval u1 t1 /\
          (forall x, u1 x -! khalf dt0 *! f1 x = u x +! khalf dt0 *! feval u t x) /\
          ms_traj2 (point t u) t1 u1 tr' ds
      end.
    Proof.
      intros Hc dt0 ds t u. cbn [ms_run]. unfold ms_time_step. cbn [ms_predict forallb is_none andb cache_update app].
      pose proof (ms_update_start_form [a0; a1] [b0; b1; b2] Trapezoid [None; Some (point t u)] t dt0 u (Some (feval u t)) Hc eq_refl) as S.
      cbv beta iota zeta in S. destruct S as [u1 [E H]]. rewrite E. cbn [cache_update app]. unfold ms_end_point.
      pose proof (ms_two_step_rest Hc ds (point t u) (t +! dt0) u1) as R.
      destruct (run [Some (point t u); Some (point (t +! dt0) u1)] (t +! dt0) u1 ds) as [[tr cf] err].
      destruct R as [Re Rt]. split; [exact Re|]. repeat split; [exact H | exact Rt].
    Qed.
  End TwoStep.
End MultistepProofs.

(* non-vacuity: the solver contract is satisfiable for every factor on a right-hand side that depends on the solution
   (Z, two components, f(u,t) = (u_2 + t, 0), solved by forward substitution) *)
From Coq Require Import ZArith.
Example ms_solver_contract_sat :
  @ms_solver_contract Z Z.mul Z.sub bool
     (fun u t x => if x then (u false + t)%Z else 0%Z)
     (fun rhs a _ t x => if x then (rhs true + a * (rhs false + t))%Z else rhs false).
Proof. intros rhs a g t x. destruct x; ring. Qed.
