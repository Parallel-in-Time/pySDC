(* C05 — proofs: the formal integral of a polynomial through its antiderivative; soundness of the
   collocation-table validator [check_coll] (finitely many checked moments ==> exactness for EVERY polynomial
   below the order, with the fast organisation proved equal to the reference one); the affine law against the
   reference table; the scaling exponent.  The property theorems are in Props/C05.v. *)
From Coq Require Import ZArith QArith Qabs List Bool Lia.
From PySDC Require Import Base.Dyadic Base.DyadicFast Base.Poly Model.Colloc.
Import ListNotations.
Open Scope Q_scope.

Definition qnat (n : nat) : Q := inject_Z (Z.of_nat n).

(* integral of x^k over [lo, hi] *)
Definition mono_int (lo hi : Q) (k : nat) : Q := (qpow hi (S k) - qpow lo (S k)) / qnat (S k).

(* integral of the polynomial with coefficient list c (lowest degree first) over [lo, hi] *)
Definition pint (c : list Q) (lo hi : Q) : Q := lin_from 0 c (mono_int lo hi).

(* antiderivative with zero constant term, and the formal derivative *)
Fixpoint antider_from (k : nat) (c : list Q) : list Q :=
  match c with [] => [] | a :: c' => a / qnat (S k) :: antider_from (S k) c' end.
Definition antider (c : list Q) : list Q := 0 :: antider_from 0 c.

Fixpoint deriv_from (k : nat) (c : list Q) : list Q :=   (* c holds the coefficients of x^k, x^(k+1), .. *)
  match c with [] => [] | a :: c' => qnat k * a :: deriv_from (S k) c' end.
Definition pderiv (c : list Q) : list Q := match c with [] => [] | _ :: c' => deriv_from 1 c' end.

Lemma qnat_S_pos k : 0 < qnat (S k).
Proof. unfold qnat. change 0 with (inject_Z 0). rewrite <- Zlt_Qlt. lia. Qed.

Lemma qnat_S_neq0 k : ~ qnat (S k) == 0.
Proof. intro H. pose proof (qnat_S_pos k) as P. rewrite H in P. discriminate P. Qed.

(* the formal derivative of the antiderivative is the polynomial itself (coefficientwise) *)
Lemma deriv_antider_from c : forall k, Forall2 Qeq (deriv_from (S k) (antider_from k c)) c.
Proof.
  induction c as [|a c IH]; intros k; cbn [antider_from deriv_from]; constructor.
  - field. apply qnat_S_neq0.
  - apply IH.
Qed.

(* evaluating the antiderivative: P(x) = sum_j c_j x^(j+1)/(j+1) *)
Lemma peval_antider_from c : forall k x,
  qpow x (S k) * peval (antider_from k c) x == lin_from k c (fun j => qpow x (S j) / qnat (S j)).
Proof.
  induction c as [|a c IH]; intros k x; cbn [antider_from lin_from].
  - unfold peval; cbn. ring.
  - rewrite peval_cons, <- IH. cbn [qpow]. field. apply qnat_S_neq0.
Qed.

Lemma peval_antider c x : peval (antider c) x == lin_from 0 c (fun j => qpow x (S j) / qnat (S j)).
Proof.
  unfold antider. rewrite peval_cons, <- peval_antider_from. cbn [qpow]. ring.
Qed.

Lemma forallb_seq (f : nat -> bool) a n :
  forallb f (seq a n) = true -> forall i, (a <= i < a + n)%nat -> f i = true.
Proof. intros H i Hi. rewrite forallb_forall in H. apply H. apply in_seq. exact Hi. Qed.

Lemma hd_nth (l : list dy) d : (0 < length l)%nat -> hd d l = nth 0 l d0.
Proof. destruct l; cbn; [lia | reflexivity]. Qed.

Definition QL (l : list dy) : list Q := map D2Q l.

Lemma D2Q_dmoment w : forall x k, D2Q (dmoment w x k) == moment (QL w) (QL x) k.
Proof.
  unfold moment, QL.
  induction w as [|wi w IH]; intros [|xi x] k; cbn [dmoment wsum map]; try reflexivity.
  rewrite D2Q_add, D2Q_mul, D2Q_dpow, IH. reflexivity.
Qed.

(* tolerance of the k-th moment condition:  rtol * sum_i |w_i| |x_i|^k  *)
Definition rule_tol (w x : list dy) (rtol : dy) (k : nat) : Q := D2Q rtol * D2Q (dmoment_abs w x k).

Fixpoint abs_moment (w x : list Q) (k : nat) : Q :=
  match w, x with wi :: w', xi :: x' => Qabs (wi * qpow xi k) + abs_moment w' x' k | _, _ => 0 end.

Lemma rule_tol_eq w x rtol k :
  rule_tol w x rtol k == D2Q rtol * abs_moment (QL w) (QL x) k.
Proof.
  unfold rule_tol. apply Qmult_comp; [reflexivity|]. unfold QL. revert x.
  induction w as [|wi w IH]; intros [|xi x]; cbn [dmoment_abs abs_moment map]; try reflexivity.
  rewrite D2Q_add, D2Q_abs, D2Q_mul, D2Q_dpow, IH. reflexivity.
Qed.

Lemma check_mom_sound w x top rtol k :
  check_mom w x top rtol k = true ->
  Qabs (moment (QL w) (QL x) k - mono_int 0 (D2Q top) k) <= rule_tol w x rtol k.
Proof.
  unfold check_mom, rule_tol, mono_int. cbv zeta.
  rewrite dleb_abs_sub_spec, !D2Q_mul, D2Q_dZ, D2Q_dmoment, D2Q_dpow. fold (qnat (S k)).
  intros H. setoid_replace (qpow (D2Q top) (S k) - qpow 0 (S k)) with (qpow (D2Q top) (S k)) by (cbn [qpow]; ring).
  apply Qabs_div_bound with (K := qnat (S k)); [apply qnat_S_pos|]. exact H.
Qed.

Lemma zipmul_pow xs k : zipmul xs (map (fun x => dpow x k) xs) = map (fun x => dpow x (S k)) xs.
Proof. induction xs as [|x xs IH]; cbn [map zipmul dpow]; [reflexivity|]. rewrite IH. reflexivity. Qed.

Lemma fdot_pow w : forall xs k,
  fdot w (map (fun x => dpow x k) xs) = (dmoment w xs k, dmoment_abs w xs k).
Proof.
  induction w as [|wi w IH]; intros [|xi xs] k; cbn [fdot map dmoment dmoment_abs]; try reflexivity.
  rewrite IH, !fadd_eq. reflexivity.
Qed.

Lemma check_rule_from_eq w xs top rtol : forall n k,
  check_rule_from w (powtab_from xs (map (fun x => dpow x k) xs) n) rtol k (dpow top (S k)) top
  = forallb (check_mom w xs top rtol) (seq k n).
Proof.
  induction n as [|n IH]; intros k; cbn [powtab_from check_rule_from seq forallb]; [reflexivity|].
  rewrite fdot_pow, fleb_eq, fsub_eq, zipmul_pow.
  change (dmul top (dpow top (S k))) with (dpow top (S (S k))). rewrite IH. reflexivity.
Qed.

Lemma check_rule_fast_eq w xs top rtol n :
  check_rule_fast w (powtab xs n) top rtol = check_rule w xs top rtol n.
Proof. unfold check_rule_fast, powtab, check_rule. apply check_rule_from_eq. Qed.

(* the central step: n checked moments => every polynomial with at most n coefficients *)
Theorem check_rule_sound w x top rtol n :
  check_rule w x top rtol n = true ->
  forall c, (length c <= n)%nat ->
  Qabs (wsum (QL w) (QL x) (peval c) - pint c 0 (D2Q top)) <= abs_lin_from 0 c (rule_tol w x rtol).
Proof.
  unfold check_rule. intros H c Hlen. rewrite wsum_peval. unfold pint.
  apply (moment_checks_bound _ _ _ _ n H); [intros k; apply check_mom_sound | exact Hlen].
Qed.

(* back to the unscaled weights and nodes: w_i*s, (x_i - a)*s  *)
Lemma wsum_hat (f : Q -> Q) (Hf : forall u v, u == v -> f u == f v) a s ws : forall xs,
  wsum (QL (map (fun w => dmul w s) ws)) (QL (map (hat a s) xs)) f
  == D2Q s * wsum (QL ws) (QL xs) (fun x => f ((x - D2Q a) * D2Q s)).
Proof.
  unfold QL. induction ws as [|w ws IH]; intros [|x xs]; cbn [map wsum]; try ring.
  rewrite IH. rewrite D2Q_mul.
  rewrite (Hf (D2Q (hat a s x)) ((D2Q x - D2Q a) * D2Q s)).
  - ring.
  - unfold hat. rewrite D2Q_mul, D2Q_sub. reflexivity.
Qed.

Definition QA (t : coll_table) : Q := D2Q (ct_a t).
Definition QB (t : coll_table) : Q := D2Q (ct_b t).
Definition sigma (t : coll_table) : Q := D2Q (sig (ct_a t) (ct_b t)).     (* a power of two *)
Definition hatQ (t : coll_table) (x : Q) : Q := (x - QA t) * sigma t.       (* the scaled variable *)
Definition Qnodes (t : coll_table) : list Q := QL (ct_nodes t).
Definition Qweights (t : coll_table) : list Q := QL (ct_weights t).
Definition Qrow (t : coll_table) (m : nat) : list Q := QL (tl (nth m (ct_Q t) [])).   (* Qmat[m, 1:] *)
Definition Qent (A : list (list dy)) (i j : nat) : Q := D2Q (ent A i j).
Definition node (t : coll_table) (i : nat) : Q := D2Q (nth i (ct_nodes t) d0).
Definition nnodes (t : coll_table) : nat := length (ct_nodes t).

Definition spec_nodes (t : coll_table) : Prop :=
  QA t < QB t /\
  (forall i j, (i < j < nnodes t)%nat -> node t i < node t j) /\
  (forall i, (i < nnodes t)%nat -> QA t <= node t i <= QB t) /\
  (node t 0 == QA t <-> ct_left t = true) /\
  (node t (nnodes t - 1) == QB t <-> ct_right t = true).

(* weights: for every polynomial p_c(y) = sum_k c_k y^k in the scaled variable y = (x - a) sigma,
     sigma * sum_i w_i p_c(y_i)  =  int_0^{(b-a) sigma} p_c(y) dy   ( = sigma * int_a^b p_c(y(x)) dx )  *)
Definition spec_weights (t : coll_table) : Prop :=
  forall c, (length c <= ct_order t)%nat ->
  Qabs (sigma t * wsum (Qweights t) (Qnodes t) (fun x => peval c (hatQ t x)) - pint c 0 (hatQ t (QB t)))
  <= abs_lin_from 0 c (rule_tol (ct_what t) (ct_xhat t) (ct_rtol t)).

(* row m+1 of Qmat integrates from tleft to node m *)
Definition spec_Q (t : coll_table) : Prop :=
  forall m, (m < nnodes t)%nat ->
  forall c, (length c <= nnodes t)%nat ->
  Qabs (sigma t * wsum (Qrow t (S m)) (Qnodes t) (fun x => peval c (hatQ t x)) - pint c 0 (hatQ t (node t m)))
  <= abs_lin_from 0 c (rule_tol (ct_qhat t (S m)) (ct_xhat t) (ct_rtol t)).

Definition spec_pad (t : coll_table) : Prop :=
  (forall j, Qent (ct_Q t) 0 j == 0) /\ (forall i, Qent (ct_Q t) i 0 == 0) /\
  (forall j, Qent (ct_S t) 0 j == 0) /\ (forall i, Qent (ct_S t) i 0 == 0).

Definition S_tol (t : coll_table) (m j : nat) : Q :=
  D2Q (ct_stol t) * (Qabs (Qent (ct_Q t) (S m) j) + Qabs (Qent (ct_Q t) m j)).

Definition spec_S (t : coll_table) : Prop :=
  forall m j, (m < nnodes t)%nat -> (j <= nnodes t)%nat ->
  Qabs (Qent (ct_S t) (S m) j - (Qent (ct_Q t) (S m) j - Qent (ct_Q t) m j)) <= S_tol t m j.

(* Q[m] = sum_{l <= m} S[l] *)
Definition spec_cumsum (t : coll_table) : Prop :=
  forall m j, (m <= nnodes t)%nat -> (j <= nnodes t)%nat ->
  Qabs (Qent (ct_Q t) m j - qsum (map (fun l => Qent (ct_S t) (S l) j) (seq 0 m)))
  <= qsum (map (fun l => S_tol t l j) (seq 0 m)).

Definition spec_delta (t : coll_table) : Prop :=
  forall m, (m < nnodes t)%nat ->
  let x := node t m in
  let p := D2Q (nth m (ct_a t :: ct_nodes t) d0) in     (* tleft for m = 0, node m-1 otherwise *)
  Qabs (D2Q (nth m (ct_delta t) d0) - (x - p)) <= D2Q (ct_stol t) * (Qabs x + Qabs p).

Definition spec_upd (t : coll_table) : Prop :=
  ct_upd_out t = (ct_upd_in t || negb (ct_right t))%bool.

Definition coll_spec (t : coll_table) : Prop :=
  spec_nodes t /\ spec_weights t /\ spec_Q t /\ spec_pad t /\ spec_S t /\ spec_cumsum t /\ spec_delta t /\ spec_upd t.

Lemma increasing_head x l : increasing (x :: l) = true ->
  forall j, (j < length l)%nat -> D2Q x < D2Q (nth j l d0).
Proof.
  revert x. induction l as [|y l IH]; intros x H j Hj; [cbn in Hj; lia|].
  cbn [increasing] in H. apply andb_prop in H as [Hxy Hinc]. apply dltb_spec in Hxy.
  destruct j as [|j]; [exact Hxy|]. cbn [nth].
  eapply Qlt_trans; [exact Hxy|]. apply IH; [exact Hinc | cbn in Hj; lia].
Qed.

Lemma increasing_tail x l : increasing (x :: l) = true -> increasing l = true.
Proof. destruct l as [|y l]; [reflexivity|]. cbn [increasing]. intros H. apply andb_prop in H. apply H. Qed.

Lemma increasing_sound l : increasing l = true ->
  forall i j, (i < j < length l)%nat -> D2Q (nth i l d0) < D2Q (nth j l d0).
Proof.
  induction l as [|x l IH]; intros H i j Hij; [cbn in Hij; lia|].
  destruct i as [|i].
  - destruct j as [|j]; [lia|]. cbn [nth]. apply (increasing_head x l H). cbn in Hij; lia.
  - destruct j as [|j]; [lia|]. cbn [nth]. apply IH; [apply (increasing_tail x l H) | cbn in Hij; lia].
Qed.

Lemma Qle_lt_or_eq' x y : x <= y -> x < y \/ x == y.
Proof. intros H. apply Qle_lt_or_eq. exact H. Qed.

Lemma chk_nodes_sound t : (0 < nnodes t)%nat -> chk_nodes t = true -> spec_nodes t.
Proof.
  unfold chk_nodes, spec_nodes, nnodes, node, QA, QB. intros HM.
  rewrite (hd_nth _ _ HM), last_nth, (nth_indep _ (ct_b t) d0) by lia.
  intros [[[[[Hab%dltb_spec Hinc]%andb_prop Hlo%dleb_spec]%andb_prop Hhi%dleb_spec]%andb_prop
            Hl%eqb_prop]%andb_prop Hr%eqb_prop]%andb_prop.
  pose proof (increasing_sound _ Hinc) as Hmono.
  split; [exact Hab|]. split; [exact Hmono|]. split; [|split].
  - intros i Hi. split.
    + destruct i as [|i]; [exact Hlo|]. eapply Qle_trans; [exact Hlo|]. apply Qlt_le_weak, Hmono. lia.
    + destruct (Nat.eq_dec i (length (ct_nodes t) - 1)) as [->|Hne]; [exact Hhi|].
      eapply Qle_trans; [|exact Hhi]. apply Qlt_le_weak, Hmono. lia.
  - rewrite <- Hl. symmetry. apply deqb_spec.
  - rewrite <- Hr. symmetry. apply deqb_spec.
Qed.

Lemma D2Q_top t : D2Q (ct_top t) == hatQ t (QB t).
Proof. unfold ct_top, hat, hatQ, QA, QB, sigma. rewrite D2Q_mul, D2Q_sub. reflexivity. Qed.

Lemma D2Q_xhat_nth t m : (m < nnodes t)%nat -> D2Q (nth m (ct_xhat t) d0) == hatQ t (node t m).
Proof.
  intros Hm. unfold ct_xhat, hatQ, node, QA, sigma.
  rewrite (nth_indep _ d0 (hat (ct_a t) (sig (ct_a t) (ct_b t)) d0)) by (rewrite map_length; exact Hm).
  rewrite map_nth. unfold hat. rewrite D2Q_mul, D2Q_sub. reflexivity.
Qed.

Lemma pint_ext c lo hi hi' : hi == hi' -> pint c lo hi == pint c lo hi'.
Proof.
  intros H. unfold pint. apply lin_from_ext. intro j. unfold mono_int. rewrite H. reflexivity.
Qed.

(* a rule with weights [ws] on the nodes of t that passes the moment check in the scaled variable up to [top]:
   the weights clause and every row of Qmat are instances *)
Lemma rule_hat_sound t ws top n :
  check_rule_fast (map (fun w => dmul w (sig (ct_a t) (ct_b t))) ws) (powtab (ct_xhat t) n) top (ct_rtol t) = true ->
  forall c, (length c <= n)%nat ->
  Qabs (sigma t * wsum (QL ws) (Qnodes t) (fun x => peval c (hatQ t x)) - pint c 0 (D2Q top))
  <= abs_lin_from 0 c (rule_tol (map (fun w => dmul w (sig (ct_a t) (ct_b t))) ws) (ct_xhat t) (ct_rtol t)).
Proof.
  rewrite check_rule_fast_eq. intros H c Hc. pose proof (check_rule_sound _ _ _ _ _ H c Hc) as B.
  unfold ct_xhat in B at 1. rewrite (wsum_hat (peval c) (peval_ext c)) in B. exact B.
Qed.

Lemma chk_weights_sound t : chk_weights t = true -> spec_weights t.
Proof.
  intros H c Hc. rewrite <- (pint_ext c 0 _ _ (D2Q_top t)).
  exact (rule_hat_sound t (ct_weights t) (ct_top t) (ct_order t) H c Hc).
Qed.

Lemma chk_Q_sound t : chk_Q t = true -> spec_Q t.
Proof.
  intros H m Hm c Hc. rewrite <- (pint_ext c 0 _ _ (D2Q_xhat_nth t m Hm)).
  apply (rule_hat_sound t (tl (nth (S m) (ct_Q t) [])) _ (nnodes t)); [|exact Hc].
  apply (forallb_seq _ _ _ H m). unfold nnodes in Hm. lia.
Qed.

Lemma forallb_nth {A} (P : A -> bool) l d i : forallb P l = true -> P d = true -> P (nth i l d) = true.
Proof.
  intros H Hd. destruct (Nat.lt_ge_cases i (length l)) as [Hi|Hi].
  - apply (proj1 (forallb_forall P l) H), nth_In, Hi.
  - rewrite nth_overflow by exact Hi. exact Hd.
Qed.

Lemma all_zero_nth l j : all_zero l = true -> D2Q (nth j l d0) == 0.
Proof. intros H. exact (proj1 (deqb_spec _ d0) (forallb_nth (fun x => deqb x d0) l d0 j H eq_refl)). Qed.

Lemma first_col_zero A i : forallb (fun r => deqb (hd d0 r) d0) A = true -> Qent A i 0 == 0.
Proof.
  unfold Qent, ent. intros H. pose proof (forallb_nth _ A [] i H eq_refl) as E. apply deqb_spec in E.
  destruct (nth i A []); exact E.
Qed.

Lemma chk_pad_sound t : chk_pad t = true -> spec_pad t.
Proof.
  unfold chk_pad, spec_pad. intros [[[HQ0 HQc]%andb_prop HS0]%andb_prop HSc]%andb_prop.
  exact (conj (fun j => all_zero_nth _ j HQ0) (conj (fun i => first_col_zero _ i HQc)
        (conj (fun j => all_zero_nth _ j HS0) (fun i => first_col_zero _ i HSc)))).
Qed.

Lemma close_sound tol scale x y : close tol scale x y = true <->
  Qabs (D2Q x - D2Q y) <= D2Q tol * D2Q scale.
Proof. unfold close. rewrite dleb_abs_sub_spec, D2Q_mul. reflexivity. Qed.

(* d is the difference x - y up to one rounding: the shape shared by the Smat and delta_m clauses *)
Lemma close_diff_sound tol x y d : close tol (dadd (dabs x) (dabs y)) d (dsub x y) = true ->
  Qabs (D2Q d - (D2Q x - D2Q y)) <= D2Q tol * (Qabs (D2Q x) + Qabs (D2Q y)).
Proof. intros H. apply close_sound in H. rewrite D2Q_sub, D2Q_add, !D2Q_abs in H. exact H. Qed.

(* the shape of the node clause of the affine law: x is a + (b - a) r up to the tolerance *)
Lemma close_affine_sound tol a b x r : close tol (dadd (dabs a) (dabs b)) x (dadd a (dmul (dsub b a) r)) = true ->
  Qabs (D2Q x - (D2Q a + (D2Q b - D2Q a) * D2Q r)) <= D2Q tol * (Qabs (D2Q a) + Qabs (D2Q b)).
Proof. intros H. apply close_sound in H. rewrite !D2Q_add, D2Q_mul, D2Q_sub, !D2Q_abs in H. exact H. Qed.

Lemma chk_S_sound t : chk_S t = true -> spec_S t.
Proof.
  unfold chk_S, spec_S. intros H m j Hm Hj.
  pose proof (forallb_seq _ _ _ H m ltac:(fold (nnodes t); lia)) as H1.
  pose proof (forallb_seq _ _ _ H1 j ltac:(fold (nnodes t); lia)) as H2.
  exact (close_diff_sound _ _ _ _ H2).
Qed.

(* a sequence starting at 0 whose increments are s_l up to tau_l stays within the accumulated tolerance of the partial sums *)
Lemma telescope_bound (q s tau : nat -> Q) M : q 0%nat == 0 ->
  (forall l, (l < M)%nat -> Qabs (s l - (q (S l) - q l)) <= tau l) ->
  forall m, (m <= M)%nat -> Qabs (q m - qsum (map s (seq 0 m))) <= qsum (map tau (seq 0 m)).
Proof.
  intros H0 Hs m Hm. induction m as [|m IH].
  - cbn [seq map qsum fold_right]. rewrite H0. setoid_replace (0 - 0) with 0 by ring. apply Qle_refl.
  - rewrite seq_S, !map_app, !qsum_app. cbn [plus map qsum fold_right]. rewrite !Qplus_0_r.
    setoid_replace (q (S m) - (qsum (map s (seq 0 m)) + s m))
      with ((q m - qsum (map s (seq 0 m))) + - (s m - (q (S m) - q m))) by ring.
    eapply Qle_trans; [apply Qabs_triangle|]. rewrite Qabs_opp.
    apply Qplus_le_compat; [apply IH; lia | apply Hs; lia].
Qed.

Lemma cumsum_of_S t : spec_pad t -> spec_S t -> spec_cumsum t.
Proof.
  intros [Hp _] HS m j Hm Hj.
  exact (telescope_bound (fun l => Qent (ct_Q t) l j) (fun l => Qent (ct_S t) (S l) j) (fun l => S_tol t l j)
           (nnodes t) (Hp j) (fun l Hl => HS l j Hl Hj) m Hm).
Qed.

Lemma chk_delta_sound t : chk_delta t = true -> spec_delta t.
Proof.
  unfold chk_delta, spec_delta. intros H m Hm. cbv zeta.
  pose proof (forallb_seq _ _ _ H m ltac:(fold (nnodes t); lia)) as H1.
  exact (close_diff_sound _ _ _ _ H1).
Qed.

Lemma chk_shape_pos t : chk_shape t = true -> (0 < nnodes t)%nat.
Proof.
  unfold chk_shape. intros [[[[[[H%Nat.ltb_lt _]%andb_prop _]%andb_prop _]%andb_prop _]%andb_prop _]%andb_prop _]%andb_prop.
  exact H.
Qed.

Theorem check_coll_sound t : check_coll t = true -> coll_spec t.
Proof.
  unfold check_coll, coll_spec.
  intros [[[[[[[Hshape%chk_shape_pos Hnodes]%andb_prop Hw]%andb_prop HQ]%andb_prop Hpad%chk_pad_sound]%andb_prop
              HS%chk_S_sound]%andb_prop Hdelta]%andb_prop Hupd%eqb_prop]%andb_prop.
  split; [exact (chk_nodes_sound t Hshape Hnodes)|].
  split; [exact (chk_weights_sound t Hw)|].
  split; [exact (chk_Q_sound t HQ)|].
  split; [exact Hpad|]. split; [exact HS|].
  split; [exact (cumsum_of_S t Hpad HS)|].
  split; [exact (chk_delta_sound t Hdelta) | exact Hupd].
Qed.

Lemma D2Q_l1 l : D2Q (l1 l) == qsum (map Qabs (QL l)).
Proof.
  unfold l1, QL. rewrite D2Q_dsum, !map_map. unfold qsum. induction l as [|x l IH]; cbn [map fold_right]; [reflexivity|].
  rewrite IH, D2Q_abs. reflexivity.
Qed.

Definition aff_row_spec (h wtol : dy) (rw tw : list dy) : Prop :=
  length rw = length tw /\
  forall i, (i < length rw)%nat ->
  Qabs (D2Q (nth i tw d0) - D2Q h * D2Q (nth i rw d0)) <= D2Q wtol * (D2Q h * qsum (map Qabs (QL rw))).

Lemma forallb_combine_nth {A} (d : A) (f : A * A -> bool) l1 l2 :
  length l1 = length l2 -> forallb f (combine l1 l2) = true ->
  forall i, (i < length l1)%nat -> f (nth i l1 d, nth i l2 d) = true.
Proof.
  intros Hl H i Hi. rewrite forallb_forall in H. apply H.
  rewrite <- combine_nth by exact Hl. apply nth_In. rewrite combine_length. lia.
Qed.

Lemma chk_aff_row_sound h wtol rw tw : chk_aff_row h wtol rw tw = true -> aff_row_spec h wtol rw tw.
Proof.
  unfold chk_aff_row, aff_row_spec. intros H. apply andb_prop in H as [Hl H]. apply Nat.eqb_eq in Hl.
  split; [exact Hl|]. intros i Hi.
  pose proof (forallb_combine_nth d0 _ _ _ Hl H i Hi) as Hc. cbn [fst snd] in Hc.
  apply close_sound in Hc. rewrite !D2Q_mul, D2Q_l1 in Hc. exact Hc.
Qed.

Definition affine_spec (r t : coll_table) (ntol wtol : dy) : Prop :=
  let h := dsub (ct_b t) (ct_a t) in
  QA r == 0 /\ QB r - QA r == 1 /\ nnodes r = nnodes t /\
  (forall i, (i < nnodes t)%nat ->
     Qabs (node t i - (QA t + (QB t - QA t) * node r i)) <= D2Q ntol * (Qabs (QA t) + Qabs (QB t))) /\
  aff_row_spec h wtol (ct_weights r) (ct_weights t) /\
  (length (ct_Q r) = length (ct_Q t) /\
   forall m, (m < length (ct_Q r))%nat -> aff_row_spec h wtol (nth m (ct_Q r) []) (nth m (ct_Q t) [])) /\
  (length (ct_S r) = length (ct_S t) /\
   forall m, (m < length (ct_S r))%nat -> aff_row_spec h wtol (nth m (ct_S r) []) (nth m (ct_S t) [])) /\
  ct_order r = ct_order t /\ ct_left r = ct_left t /\ ct_right r = ct_right t.

Lemma chk_aff_rows_sound h wtol (A B : list (list dy)) :
  length A = length B -> forallb (fun p => chk_aff_row h wtol (fst p) (snd p)) (combine A B) = true ->
  forall m, (m < length A)%nat -> aff_row_spec h wtol (nth m A []) (nth m B []).
Proof. intros Hl H m Hm. apply chk_aff_row_sound, (forallb_combine_nth [] _ _ _ Hl H m Hm). Qed.

Theorem check_affine_sound r t ntol wtol : check_affine r t ntol wtol = true -> affine_spec r t ntol wtol.
Proof.
  unfold check_affine, affine_spec. cbv zeta.
  intros [[[[[[[[[[[Ha%deqb_spec Hh%deqb_spec]%andb_prop Hn%Nat.eqb_eq]%andb_prop Hnodes]%andb_prop
                   Hw%chk_aff_row_sound]%andb_prop HlQ%Nat.eqb_eq]%andb_prop HQ]%andb_prop HlS%Nat.eqb_eq]%andb_prop
               HS]%andb_prop Ho%Nat.eqb_eq]%andb_prop Hl%eqb_prop]%andb_prop Hr%eqb_prop]%andb_prop.
  rewrite D2Q_sub in Hh.
  split; [exact Ha|]. split; [exact Hh|]. split; [exact Hn|].
  split.
  { intros i Hi. unfold nnodes in *.
    exact (close_affine_sound _ _ _ _ _ (forallb_combine_nth d0 _ _ _ Hn Hnodes i ltac:(lia))). }
  split; [exact Hw|].
  split; [exact (conj HlQ (chk_aff_rows_sound _ _ _ _ HlQ HQ))|].
  split; [exact (conj HlS (chk_aff_rows_sound _ _ _ _ HlS HS))|].
  repeat split; assumption.
Qed.

Lemma scale_exp_spec a b : D2Q a < D2Q b ->
  1 <= (D2Q b - D2Q a) * D2Q (sig a b) < 2.
Proof.
  intros Hab. rewrite <- D2Q_sub, <- D2Q_mul. unfold sig, scale_exp. set (h := dsub b a).
  assert (Hpos : (0 < dm h)%Z).
  { apply (inject_Z_lt_pow 0 (dm h) (de h)). change (inject_Z 0) with 0. rewrite Qmult_0_l.
    change (0 < D2Q (dsub b a)). rewrite D2Q_sub. exact (proj1 (Qlt_minus_iff _ _) Hab). }
  rewrite Z.abs_eq by lia. destruct (Z.log2_spec _ Hpos) as [Lo Hi]. set (l := Z.log2 (dm h)) in *.
  assert (Hl : (0 <= l)%Z) by apply Z.log2_nonneg.
  (* the product is  dm h * 2^(-l)  with  2^l <= dm h < 2^(l+1);  1 and 2 are 2^l * 2^(-l) and 2^(l+1) * 2^(-l) *)
  unfold D2Q, dmul, dpow2. cbn [dm de]. replace (de h + - (l + de h))%Z with (- l)%Z by lia. rewrite Z.mul_1_r.
  split.
  - apply Qle_trans with (inject_Z (1 * 2 ^ l) * 2 ^ (- l)); [|apply inject_Z_le_pow; lia].
    rewrite shift_Q by exact Hl. replace (- l + l)%Z with 0%Z by lia. apply Qle_refl.
  - apply Qlt_le_trans with (inject_Z (1 * 2 ^ Z.succ l) * 2 ^ (- l)); [apply inject_Z_lt_pow; lia|].
    rewrite shift_Q by lia. replace (- l + Z.succ l)%Z with 1%Z by lia. apply Qle_refl.
Qed.

Lemma bools_eqb_eq x : forall y, bools_eqb x y = true -> x = y.
Proof.
  induction x as [|a x IH]; intros [|b y] H; cbn in H; try discriminate; [reflexivity|].
  apply andb_prop in H as [H1 H2]. apply eqb_prop in H1. rewrite H1, (IH y H2). reflexivity.
Qed.
