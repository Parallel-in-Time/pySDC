(* Proofs about Model/Transfer.v: FAS consistency (C10).  The file starts with the facts about sums and about pointwise
   equality (of tau tables, of integrals, of restrictions) that the multi-level and block proofs use as well. *)
From Coq Require Import List Arith Bool Lia Ring.
From PySDC Require Import Model.Sweep Model.Transfer Proofs.SweepProofs.
Import ListNotations.

(* pointwise equality of two tau tables on the nodes 1..n *)
Definition teq {K X : Type} (n : nat) (t t' : nat -> option (X -> K)) : Prop :=
  forall m, 1 <= m <= n ->
    match t m, t' m with
    | Some a, Some b => forall x, a x = b x
    | None, None => True
    | _, _ => False
    end.

Lemma teq_refl {K X : Type} n (t : nat -> option (X -> K)) : teq n t t.
Proof. intros m _. destruct (t m); [reflexivity | exact I]. Qed.

Lemma teq_none {K X : Type} n (t t' : nat -> option (X -> K)) m : teq n t t' -> 1 <= m <= n -> (t m = None <-> t' m = None).
Proof.
  intros H Hm. specialize (H m Hm).
  destruct (t m), (t' m); try contradiction; split; intros E; first [discriminate E | reflexivity].
Qed.

Section TransferProofs.
  Context {K : Type} (kO kI : K) (kadd kmul ksub : K -> K -> K) (kopp : K -> K).
  Hypothesis Rth : ring_theory kO kI kadd kmul ksub kopp (@eq K).
  Add Ring Kring3 : Rth.
  Context {Xf Xc : Type}.
  Notation Vf := (Xf -> K).
  Notation Vc := (Xc -> K).
  Local Infix "+!" := kadd (at level 50, left associativity).
  Local Infix "*!" := kmul (at level 40, left associativity).
  Local Infix "-!" := ksub (at level 50, left associativity).

  Variable Mf Mc : nat.
  Variable dtf dtc t0 : K.
  Variable nodes_c : nat -> K.
  Variable Qf Qc : nat -> nat -> K.
  Variable feval_c : K -> Vc -> nat -> Vc.
  Variable Rs : Vf -> Vc.
  Variable Ps : Vc -> Vf.
  Variable Rcoll Pcoll : nat -> nat -> K.

  (* linearity of the space transfer operators (what C11 checks for the shipped classes) *)
  Hypothesis Rs_add : forall a b x, Rs (vadd kadd a b) x = Rs a x +! Rs b x.
  Hypothesis Rs_sub : forall a b x, Rs (vsub ksub a b) x = Rs a x -! Rs b x.
  Hypothesis Rs_zero : forall x, Rs (vzero kO) x = kO.
  Hypothesis Ps_sub : forall a b x, Ps (vsub ksub a b) x = Ps a x -! Ps b x.
  Hypothesis Ps_ext : forall a b, (forall y, a y = b y) -> forall x, Ps a x = Ps b x.

  Notation sumf := (sumf kO kadd).
  Notation sumf_zeros := (sumf_zeros kO kI kadd kmul ksub kopp Rth).
  Variable np : nat.                            (* number of right-hand-side parts (1: generic_implicit/explicit, 2: IMEX) *)
  Notation restrict := (restrict kO kadd kmul ksub Mf Mc dtf dtc t0 nodes_c Qf Qc np feval_c Rs Rcoll).
  Notation resid_f := (residual_vec kO kadd kmul ksub Mf dtf Qf np).
  Notation resid_c := (residual_vec kO kadd kmul ksub Mc dtc Qc np).

  (* a coefficient row that is the m-th unit vector picks the m-th term *)
  Lemma sumf_unit (c g : nat -> K) m :
    1 <= m -> (forall j, 1 <= j <= m -> c j = if Nat.eqb j m then kI else kO) ->
    sumf (fun j => c j *! g j) 1 m = g m.
  Proof.
    intros Hm Hc. rewrite (sumf_last kO kI kadd kmul ksub kopp Rth _ m Hm), (Hc m), Nat.eqb_refl by lia.
    rewrite sumf_zeros; [ring|].
    intros j Hj. rewrite Hc by lia. destruct (Nat.eqb_spec j m); [lia | ring].
  Qed.

  Lemma sumf_unit_row (c : nat -> K) m :
    1 <= m -> (forall j, 1 <= j <= m -> c j = if Nat.eqb j m then kI else kO) -> sumf c 1 m = kI.
  Proof.
    intros Hm Hc. rewrite (sumf_ext kO kadd c (fun j => c j *! kI) 1 m) by (intros; ring). exact (sumf_unit c (fun _ => kI) m Hm Hc).
  Qed.

  Lemma ftot_ext {X : Type} n (g h : nat -> X -> K) x : (forall p, g p x = h p x) -> ftot kO kadd n g x = ftot kO kadd n h x.
  Proof. intros E. induction n as [|n IH]; cbn [ftot]; [reflexivity|]. unfold vadd. rewrite IH, E. reflexivity. Qed.

  Lemma integrate_ext {X : Type} M dt (Q : nat -> nat -> K) (f f' : nat -> nat -> X -> K) m x :
    (forall j, 1 <= j <= M -> forall q, f j q x = f' j q x) ->
    integrate kO kadd kmul M dt Q np f m x = integrate kO kadd kmul M dt Q np f' m x.
  Proof.
    intros H. rewrite !(integrate_is_dtQF kO kI kadd kmul ksub kopp Rth). f_equal. apply sumf_ext. intros j Hj. f_equal.
    apply ftot_ext. intros q. apply H. lia.
  Qed.

  Lemma tauval_teq {X : Type} n (t t' : nat -> option (X -> K)) m x :
    teq n t t' -> 1 <= m <= n -> tauval kO t m x = tauval kO t' m x.
  Proof.
    intros H Hm. specialize (H m Hm). unfold tauval. destruct (t m), (t' m); try contradiction; [apply H | reflexivity].
  Qed.

  Lemma rcomb_spec (g : nat -> Vf) n x :
    rcomb kO kadd kmul Mf Rs Rcoll g n x = sumf (fun m => Rcoll n m *! Rs (g m) x) 1 Mf.
  Proof.
    unfold rcomb. rewrite (accum_spec kO kI kadd kmul ksub kopp Rth). unfold vzero, vscale. ring.
  Qed.

  Lemma rcomb_ext (g h : nat -> Vf) n x :
    (forall a b : Vf, (forall y, a y = b y) -> forall x, Rs a x = Rs b x) ->
    (forall m, 1 <= m <= Mf -> forall y, g m y = h m y) ->
    rcomb kO kadd kmul Mf Rs Rcoll g n x = rcomb kO kadd kmul Mf Rs Rcoll h n x.
  Proof.
    intros Rs_ext E. rewrite !rcomb_spec. apply sumf_ext. intros m Hm. f_equal. apply Rs_ext, E. lia.
  Qed.

  (* Immediately after restriction the coarse level's defect is the restricted fine defect
     (rows of Rcoll summing to one — a table fact validated in C11). With an inherited fine tau
     (three levels) as well as without. *)
  Theorem coarse_defect_is_restricted_fine_defect Fu Ff Ftau :
    (forall m, 1 <= m <= Mf -> (Ftau 1 = None <-> Ftau m = None)) ->
    forall n, 1 <= n <= Mc ->
    sumf (fun m => Rcoll n m) 1 Mf = kI ->
    let G := restrict Fu Ff Ftau in
    forall x,
      resid_c (Gu G) (Gf G) (Gtau G) n x
      = sumf (fun m => Rcoll n m *! Rs (resid_f Fu Ff Ftau m) x) 1 Mf.
  Proof.
    intros Htau n Hn Hrow G x.
    (* Rs pushed through the fine defect, an absent tau read as zero *)
    pose (tv := fun m => match Ftau m with Some t => t | None => vzero kO end).
    assert (RHS : forall m, Rs (resid_f Fu Ff Ftau m) x
                = Rs (integrate kO kadd kmul Mf dtf Qf np Ff m) x +! (Rs (Fu 0) x -! Rs (Fu m) x) +! Rs (tv m) x).
    { intros m. unfold residual_vec, tv. destruct (Ftau m).
      - rewrite !Rs_add, Rs_sub. reflexivity.
      - rewrite Rs_add, Rs_sub, Rs_zero. set (i := Rs _ x). set (d := _ -! _). ring. }
    pose (a := fun m => Rcoll n m *! Rs (integrate kO kadd kmul Mf dtf Qf np Ff m) x).
    pose (t := fun m => Rcoll n m *! Rs (tv m) x).
    pose (uu := fun m => Rcoll n m *! Rs (Fu m) x).
    (* the sum splits; the row sum multiplies the initial value *)
    rewrite (sumf_ext kO kadd _ (fun m => (a m +! t m) +! (Rs (Fu 0) x *! Rcoll n m -! uu m)) 1 Mf)
      by (intros m _; rewrite RHS; unfold a, t, uu; ring).
    rewrite !(sumf_add kO kI kadd kmul ksub kopp Rth), (sumf_sub kO kI kadd kmul ksub kopp Rth),
      (sumf_scal kO kI kadd kmul ksub kopp Rth _ (fun m => Rcoll n m)), Hrow.
    (* the left-hand side: tau of the coarse level cancels its own integral *)
    unfold residual_vec, G, Transfer.restrict. cbn [Gu Gf Gtau].
    destruct (Nat.eqb_spec n 0); [lia|]. cbn [Nat.eqb].
    destruct (Ftau 1) as [t1|] eqn:E1; unfold vadd, vsub; rewrite !rcomb_spec.
    - unfold a, t, uu, tv. ring.
    - rewrite (sumf_zeros t); [unfold a, uu; ring|].
      intros m Hm. unfold t, tv. rewrite (proj1 (Htau m ltac:(lia)) eq_refl), Rs_zero. ring.
  Qed.

  (* hence: if the fine level holds its collocation solution (zero defect), so does the coarse level *)
  Corollary restricted_solution_has_zero_coarse_defect Fu Ff Ftau :
    (forall m, 1 <= m <= Mf -> (Ftau 1 = None <-> Ftau m = None)) ->
    (forall m, 1 <= m <= Mf -> forall y, resid_f Fu Ff Ftau m y = kO) ->
    (forall a b : Vf, (forall y, a y = b y) -> forall x, Rs a x = Rs b x) ->
    forall n, 1 <= n <= Mc -> sumf (fun m => Rcoll n m) 1 Mf = kI ->
    let G := restrict Fu Ff Ftau in
    forall x, resid_c (Gu G) (Gf G) (Gtau G) n x = kO.
  Proof.
    intros Htau Hzero Rs_ext n Hn Hrow G x.
    unfold G. rewrite (coarse_defect_is_restricted_fine_defect Fu Ff Ftau Htau n Hn Hrow x).
    apply sumf_zeros. intros m Hm.
    rewrite (Rs_ext _ (vzero kO)), Rs_zero by (intros y; apply Hzero; lia). ring.
  Qed.

  Lemma restrict_consistent Fu Ff Ftau :
    let G := restrict Fu Ff Ftau in consistent kadd kmul Mc dtc t0 nodes_c feval_c (Gu G) (Gf G).
  Proof.
    intros G k Hk p z. unfold G, Transfer.restrict. cbn [Gu Gf]. destruct (Nat.eqb_spec k 0); [lia | reflexivity].
  Qed.

  Lemma restrict_last_node Fu Ff Ftau x :
    1 <= Mf -> 1 <= Mc -> (forall m, 1 <= m <= Mf -> Rcoll Mc m = if Nat.eqb m Mf then kI else kO) ->
    Gu (restrict Fu Ff Ftau) Mc x = Rs (Fu Mf) x.
  Proof.
    intros HMf HMc Hunit. unfold Transfer.restrict. cbn [Gu]. destruct (Nat.eqb_spec Mc 0); [lia|].
    rewrite rcomb_spec. exact (sumf_unit _ (fun m => Rs (Fu m) x) Mf HMf Hunit).
  Qed.

  Lemma restrict_ext Fu Ff Ftau Fu' Ff' Ftau' :
    (forall a b : Vf, (forall y, a y = b y) -> forall x, Rs a x = Rs b x) -> feval_ext feval_c -> 1 <= Mf ->
    (forall m, m <= Mf -> forall x, Fu m x = Fu' m x) ->
    (forall m, 1 <= m <= Mf -> forall p x, Ff m p x = Ff' m p x) ->
    teq Mf Ftau Ftau' ->
    let G := restrict Fu Ff Ftau in
    let G' := restrict Fu' Ff' Ftau' in
    (forall n x, Gu G n x = Gu G' n x) /\ (forall n p x, Gf G n p x = Gf G' n p x) /\ forall N, teq N (Gtau G) (Gtau G').
  Proof.
    intros Rs_ext Hextc HMf Eu Ef Et G G'.
    assert (Gu_eq : forall n x, Gu G n x = Gu G' n x).
    { intros n x. unfold G, G', Transfer.restrict. cbn [Gu]. destruct (Nat.eqb n 0).
      - apply Rs_ext. intros z. apply Eu. lia.
      - apply (rcomb_ext _ _ n x Rs_ext). intros m Hm z. apply Eu. lia. }
    assert (Gf_eq : forall n p x, Gf G n p x = Gf G' n p x) by (intros n p x; apply Hextc, Gu_eq).
    split; [exact Gu_eq | split; [exact Gf_eq|]]. intros N n _.
    assert (T0 : forall x, vsub ksub (rcomb kO kadd kmul Mf Rs Rcoll (integrate kO kadd kmul Mf dtf Qf np Ff) n)
                                     (integrate kO kadd kmul Mc dtc Qc np (Gf G) n) x
                         = vsub ksub (rcomb kO kadd kmul Mf Rs Rcoll (integrate kO kadd kmul Mf dtf Qf np Ff') n)
                                     (integrate kO kadd kmul Mc dtc Qc np (Gf G') n) x).
    { intros x. unfold vsub. f_equal.
      - apply (rcomb_ext _ _ n x Rs_ext). intros m Hm z. apply integrate_ext. intros j Hj q. apply Ef, Hj.
      - apply integrate_ext. intros j _ q. apply Gf_eq. }
    pose proof (Et 1 ltac:(lia)) as E1. unfold G, G', Transfer.restrict in *. cbn [Gtau Gf] in *.
    destruct (Ftau 1), (Ftau' 1); try contradiction; intros x; [|apply T0].
    unfold vadd. f_equal; [apply T0|].
    apply (rcomb_ext _ _ n x Rs_ext). intros m Hm z. specialize (Et m Hm).
    destruct (Ftau m), (Ftau' m); try contradiction; [apply Et | reflexivity].
  Qed.

  (* The END POINT is FAS-consistent too (seeded C10-h): on node sets whose last node is the right end
     (weights = last row of Q; the controller requires it for PFASST) and with a time restriction whose last row
     picks the last fine node (nested right ends, a table fact validated in C11), the coarse end point computed
     right after restriction by the collocation update  u0 + dt sum_m w_m f_m + tau_M  is the space-restricted fine
     end point — with or without an inherited fine tau. *)
  Variable wf wc : nat -> K.
  Notation endp_f := (end_point kO kadd kmul Mf dtf wf np true true).
  Notation endp_c := (end_point kO kadd kmul Mc dtc wc np true true).

  Lemma end_point_is_defect_plus_last {X : Type} M dt (Q : nat -> nat -> K) (w : nat -> K)
        (u : nat -> X -> K) (f : nat -> nat -> X -> K) (tau : nat -> option (X -> K)) (x : X) :
    (forall j, 1 <= j <= M -> w j = Q M j) ->
    end_point kO kadd kmul M dt w np true true u f tau x
    = residual_vec kO kadd kmul ksub M dt Q np u f tau M x +! u M x.
  Proof.
    intros Hw. rewrite (end_point_quadrature kO kI kadd kmul ksub kopp Rth) by reflexivity.
    rewrite (residual_is_defect kO kI kadd kmul ksub kopp Rth).
    rewrite (sumf_ext kO kadd _ (fun j => Q M j *! ftot kO kadd np (f j) x) 1 M)
      by (intros j Hj; rewrite Hw by lia; reflexivity).
    ring.
  Qed.

  Theorem coarse_end_point_is_restricted Fu Ff Ftau :
    (forall m, 1 <= m <= Mf -> (Ftau 1 = None <-> Ftau m = None)) ->
    1 <= Mf -> 1 <= Mc ->
    (forall j, 1 <= j <= Mf -> wf j = Qf Mf j) -> (forall j, 1 <= j <= Mc -> wc j = Qc Mc j) ->
    (forall m, 1 <= m <= Mf -> Rcoll Mc m = if Nat.eqb m Mf then kI else kO) ->
    (forall a b : Vf, (forall y, a y = b y) -> forall x, Rs a x = Rs b x) ->
    let G := restrict Fu Ff Ftau in
    forall x, endp_c (Gu G) (Gf G) (Gtau G) x = Rs (endp_f Fu Ff Ftau) x.
  Proof.
    intros Htau HMf HMc Hwf Hwc Hunit Rs_ext G x.
    pose proof (sumf_unit_row (fun m => Rcoll Mc m) Mf HMf Hunit) as Hrow.
    rewrite (end_point_is_defect_plus_last Mc dtc Qc wc _ _ _ x Hwc).
    unfold G. rewrite (coarse_defect_is_restricted_fine_defect Fu Ff Ftau Htau Mc ltac:(lia) Hrow x).
    rewrite (sumf_unit _ (fun m => Rs (resid_f Fu Ff Ftau m) x) Mf HMf Hunit).
    rewrite (restrict_last_node Fu Ff Ftau x HMf HMc Hunit).
    rewrite (Rs_ext (endp_f Fu Ff Ftau) (vadd kadd (resid_f Fu Ff Ftau Mf) (Fu Mf))), Rs_add; [reflexivity|].
    intros y. apply (end_point_is_defect_plus_last Mf dtf Qf wf Fu Ff Ftau y Hwf).
  Qed.

  (* an interpolated correction vanishes when the coarse data equal their old copies *)
  Lemma zero_correction (a : Vf) (c : nat -> K) (g h : nat -> Vc) x :
    (forall m, 1 <= m <= Mc -> forall y, g m y = h m y) ->
    accum kadd a 1 Mc (fun m => vscale kmul (c m) (Ps (vsub ksub (g m) (h m)))) x = a x.
  Proof.
    intros E. rewrite (accum_spec kO kI kadd kmul ksub kopp Rth), sumf_zeros; [ring|].
    intros m Hm. unfold vscale. rewrite Ps_sub, (Ps_ext (g m) (h m)) by (apply E; lia). ring.
  Qed.

  (* prolongation adds the interpolated coarse CORRECTION: if the coarse sweeps did not change the
     coarse values, the fine values are unchanged *)
  Theorem prolong_zero_correction (G : @coarse K Xc) (Fu : nat -> Vf) :
    (forall m, 1 <= m <= Mc -> forall y, Gu G m y = Guold G m y) ->
    forall n x, prolong_u kadd kmul ksub Mc Ps Pcoll G Fu n x = Fu n x.
  Proof.
    intros Hsame n x. unfold prolong_u. destruct (Nat.eqb_spec n 0) as [->|_]; [reflexivity | apply zero_correction, Hsame].
  Qed.

  Lemma prolong_f_zero_correction (G : @coarse K Xc) (Fu : nat -> Vf) Ff :
    (forall m, 1 <= m <= Mc -> forall p y, Gf G m p y = Gfold G m p y) ->
    forall n p x, snd (prolong_f kadd kmul ksub Mc Ps Pcoll G Fu Ff) n p x = Ff n p x.
  Proof.
    intros Hsame n p x. cbn [prolong_f snd]. destruct (Nat.eqb_spec n 0) as [->|_]; [reflexivity|].
    apply (zero_correction (Ff n p) _ (fun m => Gf G m p) (fun m => Gfold G m p)). intros m Hm. apply Hsame, Hm.
  Qed.

  (* the correction that IS added, explicitly *)
  Theorem prolong_adds_interpolated_correction (G : @coarse K Xc) (Fu : nat -> Vf) n x :
    1 <= n ->
    prolong_u kadd kmul ksub Mc Ps Pcoll G Fu n x
    = Fu n x +! sumf (fun m => Pcoll n m *! (Ps (Gu G m) x -! Ps (Guold G m) x)) 1 Mc.
  Proof.
    intros Hn. unfold prolong_u. destruct (Nat.eqb_spec n 0); [lia|].
    rewrite (accum_spec kO kI kadd kmul ksub kopp Rth). f_equal.
    apply sumf_ext. intros m _. unfold vscale. rewrite Ps_sub. reflexivity.
  Qed.

  (* A complete down-up cycle: restrict; ANY coarse iteration that reproduces the values of a consistent coarse state with
     zero defect (one sweep of whatever sweeper class, several sweeps, a cycle over still coarser levels); prolong the
     correction.  It leaves the fine collocation solution unchanged — linear or nonlinear problem. *)
  Theorem two_level_cycle_fixed_point Fu Ff Ftau (r : (nat -> Vc) * (nat -> nat -> Vc)) :
    (forall m, 1 <= m <= Mf -> (Ftau 1 = None <-> Ftau m = None)) ->
    (forall m, 1 <= m <= Mf -> forall y, resid_f Fu Ff Ftau m y = kO) ->
    (forall a b : Vf, (forall y, a y = b y) -> forall x, Rs a x = Rs b x) ->
    (forall n, 1 <= n <= Mc -> sumf (fun m => Rcoll n m) 1 Mf = kI) ->
    let G := restrict Fu Ff Ftau in
    (consistent kadd kmul Mc dtc t0 nodes_c feval_c (Gu G) (Gf G) ->
     (forall k, 1 <= k <= Mc -> forall z, resid_c (Gu G) (Gf G) (Gtau G) k z = kO) ->
     forall m, 1 <= m <= Mc -> forall y, fst r m y = Gu G m y) ->
    let G' := {| Gu := fst r; Gf := snd r; Gtau := Gtau G; Guold := Guold G; Gfold := Gfold G |} in
    forall n x, prolong_u kadd kmul ksub Mc Ps Pcoll G' Fu n x = Fu n x.
  Proof.
    intros Htau Hzero Rs_ext Hrow G Hfix G'. apply prolong_zero_correction.
    (* restriction stored the coarse values as the old ones: Guold G is Gu G *)
    apply Hfix; [apply restrict_consistent|].
    intros k Hk. exact (restricted_solution_has_zero_coarse_defect Fu Ff Ftau Htau Hzero Rs_ext k Hk (Hrow k Hk)).
  Qed.

End TransferProofs.
