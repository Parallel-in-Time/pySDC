(* C06 — proofs about Model/TimeLoop.v.  No algebraic law on the number type is used before Section Exact.
   The while loop is treated once (loop_inv, run_inv: an invariant of block_step on the active slots holds at exit);
   tiling in time and chaining of values are the two instances of `thread`. *)
From Coq Require Import ZArith List Bool Lia.
From PySDC Require Import Model.TimeLoop.
Import ListNotations.

Set Implicit Arguments.

Lemma upd_length A i (x : A) l : length (upd i x l) = length l.
Proof. revert i; induction l; destruct i; simpl; auto. Qed.

Lemma nth_upd_eq A i (x d : A) l : i < length l -> nth i (upd i x l) d = x.
Proof. revert i; induction l; destruct i; simpl; intros; try lia; auto. apply IHl; lia. Qed.

Lemma nth_upd_neq A i j (x d : A) l : i <> j -> nth j (upd i x l) d = nth j l d.
Proof. revert i j; induction l; destruct i, j; simpl; intros; try lia; auto. Qed.

Arguments upd : simpl never.

Lemma nat_list_eqb_eq a b : nat_list_eqb a b = true -> a = b.
Proof.
  revert b; induction a; destruct b; simpl; try discriminate; auto.
  intros H; apply andb_true_iff in H as (E & H). apply Nat.eqb_eq in E. f_equal; auto.
Qed.

Lemma nth_map_seq A (f : nat -> A) n j d : j < n -> nth j (map f (seq 0 n)) d = f j.
Proof.
  intros H. rewrite nth_indep with (d' := f 0) by (rewrite map_length, seq_length; auto).
  rewrite map_nth, seq_nth; auto.
Qed.

Lemma firstn_S_nth A (d : A) l j : j < length l -> firstn (S j) l = firstn j l ++ [nth j l d].
Proof.
  revert j; induction l; intros j Hj; simpl in *; try lia.
  destruct j; simpl; auto. rewrite IHl by lia. auto.
Qed.

Lemma first_true_Some l i : first_true l = Some i ->
  i < length l /\ nth i l false = true.
Proof.
  revert i; induction l as [|b l IH]; intros i H; simpl in *; try discriminate.
  destruct b.
  - injection H as <-. split; auto; lia.
  - destruct (first_true l); try discriminate. injection H as <-.
    destruct (IH n eq_refl). split; auto; lia.
Qed.

Lemma first_true_all_false A (l : list A) : first_true (map (fun _ => false) l) = None.
Proof. induction l; simpl; auto. rewrite IHl; auto. Qed.

Lemma nth_true_lt (flags : list bool) p : nth p flags false = true -> p < length flags.
Proof.
  intros H. destruct (Nat.lt_ge_cases p (length flags)); auto.
  rewrite nth_overflow in H by auto. discriminate.
Qed.

Lemma compress_In flags p : In p (compress flags) <-> nth p flags false = true.
Proof.
  unfold compress. rewrite filter_In, in_seq. split; [tauto|].
  intros H. pose proof (nth_true_lt _ _ H). split; [lia|auto].
Qed.

Lemma existsb_compress flags : existsb (fun b => b) flags = true -> 0 < length (compress flags).
Proof.
  intros H. apply existsb_exists in H as (x & Hin & ->).
  apply In_nth with (d := false) in Hin as (p & _ & E). apply compress_In in E.
  destruct (compress flags); [contradiction | simpl; lia].
Qed.

Section Adj.
Variable X : Type.
Variable R : X -> X -> Prop.

Fixpoint adj (l : list X) : Prop :=
  match l with
  | x :: ((y :: _) as l') => R x y /\ adj l'
  | _ => True
  end.

Definition lastopt (l : list X) : option X :=
  match l with [] => None | x :: t => Some (last t x) end.

Lemma last_cons (l : list X) : forall x y, last (y :: l) x = last l y.
Proof.
  induction l as [|z l IH]; intros x y; [reflexivity|].
  change (last (y :: z :: l) x) with (last (z :: l) x). rewrite (IH x z), (IH y z). reflexivity.
Qed.

Lemma lastopt_cons (l : list X) x y : lastopt (x :: y :: l) = lastopt (y :: l).
Proof. exact (f_equal Some (last_cons l x y)). Qed.
End Adj.

Section Thread.
Variables (X B : Type) (key : X -> B) (follows : X -> B -> Prop).

(* A leads from i to c: its head has key i, every element is followed by the key of the next one and the
   last element by c.  Time tiling (key = start, followed by the start of the next step) and value chaining
   (key = u[0], followed by uend) are both of this form, with c what the controller carries to the next block. *)
Fixpoint thread (i : B) (A : list X) (c : B) : Prop :=
  match A with
  | [] => c = i
  | x :: A' => key x = i /\ exists m, follows x m /\ thread m A' c
  end.

Lemma thread_app A : forall i m A' c, thread i A m -> thread m A' c -> thread i (A ++ A') c.
Proof.
  induction A as [|x A IH]; simpl; intros i m A' c H H'.
  - subst m. exact H'.
  - destruct H as (Hk & m' & Hf & H). eauto.
Qed.

Lemma thread_seq (f : nat -> X) (b : nat -> B) r :
  (forall j, j < r -> key (f j) = b j /\ follows (f j) (b (S j))) -> thread (b 0) (map f (seq 0 r)) (b r).
Proof.
  induction r as [|r IH]; intros H; [reflexivity|].
  rewrite seq_S, map_app. apply thread_app with (b r); [apply IH; auto|].
  destruct (H r) as (Hk & Hf); simpl; eauto.
Qed.

Lemma thread_spec A : forall i c, thread i A c ->
  adj (fun x y => follows x (key y)) A /\ (forall x, hd_error A = Some x -> key x = i) /\
  match lastopt A with None => c = i | Some x => follows x c end.
Proof.
  induction A as [|x A IH]; intros i c H.
  - repeat split; auto. discriminate.
  - destruct H as (Hk & m & Hf & H). apply IH in H as (Ha & Hh & Hl). split; [|split].
    + destruct A as [|y A]; simpl; auto. rewrite (Hh y eq_refl). auto.
    + intros x' E. injection E as <-. exact Hk.
    + destruct A as [|y A]; [simpl in *; subst c; exact Hf|]. rewrite lastopt_cons. exact Hl.
Qed.
End Thread.

Lemma thread_impl X B (key : X -> B) (F G : X -> B -> Prop) : (forall x m, F x m -> G x m) ->
  forall A i c, thread key F i A c -> thread key G i A c.
Proof.
  intros HFG. induction A as [|x A IH]; simpl; auto. intros i c (Hk & m & Hf & H). split; auto. exists m. auto.
Qed.

Section Generic.
Variables T V : Type.
Variables (add sub : T -> T -> T) (ltb : T -> T -> bool) (zero : T).
Variable sumT : list T -> T.
Variable dV : V.
Variable paradiag : bool.
Variable oracle : nat -> list nat -> list T -> list T -> V -> blockout T V.

Notation block_step := (block_step add zero dV oracle).
Notation loop := (loop add ltb zero dV paradiag oracle).
Notation run := (run add sub ltb zero sumT dV paradiag oracle).
Notation act_flags := (act_flags ltb paradiag).
Notation chain_times := (chain_times add zero).
Notation psum := (psum sumT).

Lemma act_flags_length thr times : length (act_flags thr times) = length times.
Proof.
  unfold TimeLoop.act_flags. destruct (_ && _ && _); rewrite ?map_length; auto.
Qed.

Lemma active_bound thr times p : In p (compress (act_flags thr times)) -> p < length times.
Proof. intros H. rewrite <- (act_flags_length thr). apply nth_true_lt, compress_In, H. Qed.

Lemma act_flags_nth thr times p : paradiag = false -> p < length times ->
  nth p (act_flags thr times) false = ltb (nth p times zero) thr.
Proof.
  intros Hp Hlt. unfold TimeLoop.act_flags. rewrite Hp. simpl.
  rewrite nth_indep with (d' := ltb zero thr) by (rewrite map_length; auto).
  apply (map_nth (fun t => ltb t thr)).
Qed.

Lemma active_lt thr times p : paradiag = false ->
  In p (compress (act_flags thr times)) -> ltb (nth p times zero) thr = true.
Proof.
  intros Hp H. rewrite <- act_flags_nth by eauto using active_bound. apply compress_In, H.
Qed.

Lemma act_flags_none thr times : existsb (fun b => b) (act_flags thr times) = false ->
  forall p, p < length times -> ltb (nth p times zero) thr = false.
Proof.
  intros H p Hp. apply not_true_is_false. intros L.
  assert (Hin : In true (map (fun t => ltb t thr) times)).
  { rewrite <- L. apply (in_map (fun t => ltb t thr)), nth_In, Hp. }
  unfold TimeLoop.act_flags in H. destruct (_ && _ && _).
  - destruct (map _ times); [contradiction | discriminate].
  - rewrite (proj2 (existsb_exists _ _)) in H by eauto. discriminate.
Qed.

Lemma act_flags_some thr times : existsb (fun b => b) (act_flags thr times) = true -> 0 < length times.
Proof.
  intros H. apply existsb_compress in H. destruct (compress _) as [|p l] eqn:E; [simpl in H; lia|].
  assert (Hin : In p (compress (act_flags thr times))) by (rewrite E; left; auto).
  apply active_bound in Hin. lia.
Qed.

Lemma loop_inv (I : state T V -> V -> Prop) thr :
  (forall st u st1 u1, I st u -> existsb (fun b => b) (act_flags thr (s_time st)) = true ->
     block_step st (compress (act_flags thr (s_time st))) u = (st1, u1) -> I st1 u1) ->
  forall fuel st u uend st', loop fuel thr st u = Finished uend st' -> I st u ->
  I st' uend /\ existsb (fun b => b) (act_flags thr (s_time st')) = false.
Proof.
  intros Hstep. induction fuel; intros st u uend st' E HI; simpl in E; try discriminate.
  destruct (existsb _ _) eqn:Ex.
  - destruct (block_step _ _ _) as (st1, u1) eqn:B. apply (IHfuel _ _ _ _ E), (Hstep _ _ _ _ HI Ex B).
  - injection E as <- <-. auto.
Qed.

Lemma block_step_accepted st asl u st1 u1 x :
  block_step st asl u = (st1, u1) -> In x (s_acc st1) ->
  In x (s_acc st) \/
  In (a_slot x) asl /\ a_start x = nth (a_slot x) (s_time st) zero /\ a_dt x = nth (a_slot x) (s_dt st) zero.
Proof.
  intros E. unfold TimeLoop.block_step in E.
  destruct (first_true _); apply pair_equal_spec in E as (<- & _); cbn [s_acc]; rewrite in_app_iff.
  all: intros [H|H]; auto; right; apply in_map_iff in H as (j & <- & Hj); apply in_seq in Hj; cbn [a_slot a_start a_dt].
  all: repeat split; apply nth_In; lia.
Qed.

Lemma init_times_length t0 dts : length (init_times add sumT t0 dts) = length dts.
Proof. unfold TimeLoop.init_times. rewrite map_length. apply seq_length. Qed.

Lemma init_times_nth t0 dts j : j < length dts -> nth j (init_times add sumT t0 dts) zero = add t0 (psum dts j).
Proof. apply (nth_map_seq (fun p => add t0 (psum dts p))). Qed.

(* run = the "Nothing to do" test, then the loop from the initial state: an invariant of block_step on the active
   slots that holds of the initial state holds at Finished, where no slot is active any more *)
Lemma run_inv (I : state T V -> V -> Prop) fuel t0 tend tol dts u0 uend st :
  run fuel t0 tend tol dts u0 = Finished uend st ->
  (forall st u st1 u1, I st u -> existsb (fun b => b) (act_flags (sub tend tol) (s_time st)) = true ->
     block_step st (compress (act_flags (sub tend tol) (s_time st))) u = (st1, u1) -> I st1 u1) ->
  (0 < length dts ->
   I (mkSt (init_times add sumT t0 dts) dts (map (fun _ => dV) dts) (map (fun _ => dV) dts) [] true 0 []) u0) ->
  existsb (fun b => b) (act_flags (sub tend tol) (init_times add sumT t0 dts)) = true /\
  I st uend /\ existsb (fun b => b) (act_flags (sub tend tol) (s_time st)) = false.
Proof.
  intros E Hstep Hinit. unfold TimeLoop.run in E. destruct (existsb _ _) eqn:Ex; try discriminate.
  split; auto. eapply loop_inv; eauto. apply Hinit. rewrite <- (init_times_length t0). eapply act_flags_some, Ex.
Qed.

Theorem no_start_beyond fuel t0 tend tol dts u0 uend st :
  paradiag = false ->
  run fuel t0 tend tol dts u0 = Finished uend st ->
  forall a, In a (s_acc st) -> ltb (a_start a) (sub tend tol) = true.
Proof.
  intros Hp E.
  apply (run_inv (fun st _ => forall a, In a (s_acc st) -> ltb (a_start a) (sub tend tol) = true)) in E as (_ & H & _);
    [exact H | | contradiction].
  intros st0 u st1 u1 HI _ B x Hx.
  destruct (block_step_accepted _ _ _ _ B Hx) as [H|(Hs & -> & _)]; [|apply active_lt]; auto.
Qed.

Lemma chain_times_length asl dts : forall times, length (chain_times asl dts times) = length times.
Proof.
  unfold TimeLoop.chain_times. induction (tl asl) as [|a l IH]; intros times; simpl; auto.
  rewrite IH. apply upd_length.
Qed.

Lemma chain_times_prefix dts times : forall n, n < length times ->
  let tm := chain_times (seq 0 (S n)) dts times in
  nth 0 tm zero = nth 0 times zero /\
  (forall j, j < n -> nth (S j) tm zero = add (nth j tm zero) (nth j dts zero)) /\
  (forall j, n < j -> nth j tm zero = nth j times zero).
Proof.
  induction n as [|n IH]; intros Hn.
  - unfold TimeLoop.chain_times; simpl. repeat split; auto. intros; lia.
  - destruct IH as (H0 & Hc & Hs); [lia|].
    pose proof (chain_times_length (seq 0 (S n)) dts times) as L.
    unfold TimeLoop.chain_times in *. rewrite seq_S. simpl seq in *. simpl tl in *.
    rewrite fold_left_app. simpl.
    set (tm := fold_left _ (seq 1 n) times) in *.
    replace (n - 0) with n by lia.
    repeat split.
    + rewrite nth_upd_neq by lia. auto.
    + intros j Hj. destruct (Nat.eq_dec j n) as [->|N].
      * rewrite nth_upd_eq, nth_upd_neq by lia. auto.
      * rewrite !nth_upd_neq by lia. apply Hc; lia.
    + intros j Hj. rewrite nth_upd_neq by lia. apply Hs; lia.
Qed.

Lemma scatter_length (vals : list V) : forall asl arr, length (scatter asl vals arr) = length arr.
Proof.
  induction vals as [|v vals IH]; intros [|a asl] arr; simpl; auto. rewrite IH. apply upd_length.
Qed.

Lemma scatter_prefix (vals : list V) : forall a arr, a + length vals <= length arr ->
  let r := scatter (seq a (length vals)) vals arr in
  (forall j, j < length vals -> nth (a + j) r dV = nth j vals dV) /\
  (forall j, j < a -> nth j r dV = nth j arr dV).
Proof.
  induction vals as [|v vals IH]; intros a arr Ha; simpl in *.
  - split; auto. intros; lia.
  - destruct (IH (S a) (upd a v arr)) as (Hn & Hl); [rewrite upd_length; lia|]. split.
    + intros [|j] Hj.
      * rewrite Nat.add_0_r, Hl by lia. apply nth_upd_eq. lia.
      * replace (a + S j) with (S a + j) by lia. apply Hn. lia.
    + intros j Hj. rewrite Hl by lia. apply nth_upd_neq. lia.
Qed.

Lemma scatter_read (vals arr : list V) a j : length vals = a -> a <= length arr -> j < a ->
  nth j (scatter (seq 0 a) vals arr) dV = nth j vals dV.
Proof. intros <- Ha Hj. apply (scatter_prefix vals 0 arr Ha), Hj. Qed.

(* start of step r of a block of S n steps; for r = S n the end of its last step *)
Definition block_boundary (times dts : list T) (n r : nat) : T :=
  if r <=? n then nth r times zero else add (nth n times zero) (nth n dts zero).

(* step j of a block as it is recorded once accepted *)
Definition accepted_step (b : nat) (times dts : list T) (U0 UE : list V) (j : nat) : acc T V :=
  mkAcc b j (nth j times zero) (nth j dts zero) (nth j U0 dV) (nth j UE dV).

Section Tiling.
Variables (t0 : T) (dts0 : list T) (u0c : V) (thr : T).
Hypothesis Hplain : paradiag = false.

(* contract of the block (what pfasst + the convergence controllers guarantee; checked on the implementation
   by the harness): one entry per active step, the first step starts from the value handed in, every later
   step from the end value of its predecessor; prepare_next_block assigns a step size to every step *)
Definition contract : Prop :=
  forall b asl times dts u, let bo := oracle b asl times dts u in
    length (bo_restart bo) = length asl /\ length (bo_u0 bo) = length asl /\ length (bo_uend bo) = length asl /\
    length (bo_newdt bo) = length dts /\
    (0 < length asl -> nth 0 (bo_u0 bo) dV = u) /\
    (forall j, S j < length asl -> nth (S j) (bo_u0 bo) dV = nth j (bo_uend bo) dV).
Hypothesis Hc : contract.

(* start t follows step x: literally x.start + x.dt, or both were computed in the first block as t0 + sum(dt) *)
Definition link (x : acc T V) (t : T) : Prop :=
  t = add (a_start x) (a_dt x) \/
  (a_block x = 0 /\ a_slot x < length dts0 /\ a_dt x = nth (a_slot x) dts0 zero /\
   a_start x = add t0 (psum dts0 (a_slot x)) /\ t = add t0 (psum dts0 (S (a_slot x)))).

Definition tiled (A : list (acc T V)) : Prop := adj (fun x y => link x (a_start y)) A.
Definition nexts (A : list (acc T V)) (t : T) : Prop :=
  match lastopt A with None => t = add t0 (psum dts0 0) | Some x => link x t end.
Definition chainedV (A : list (acc T V)) : Prop := adj (fun x y => a_u0 y = a_uend x) A.

Notation tthread := (thread (@a_start T V) link).
Notation vthread := (thread (@a_u0 T V) (fun x v => v = a_uend x)).

(* the accepted steps lead from t0 + sum [] to the time of slot 0 and from the caller's value to the value
   carried; a slot other than 0 that is active continues the slot before it *)
Record loop_invariant (st : state T V) (u : V) : Prop := mk_loop_invariant {
  j_pos : 0 < length dts0;
  j_lt : length (s_time st) = length dts0;
  j_lu : length (s_u0 st) = length dts0;
  j_le : length (s_ue st) = length dts0;
  j_time : tthread (add t0 (psum dts0 0)) (s_acc st) (nth 0 (s_time st) zero);
  j_val : vthread u0c (s_acc st) u;
  j_next : forall j U0 UE, S j < length dts0 -> ltb (nth (S j) (s_time st) zero) thr = true ->
     link (accepted_step (s_blocks st) (s_time st) (s_dt st) U0 UE j) (nth (S j) (s_time st) zero) }.

Lemma prefix_active times a : compress (act_flags thr times) = seq 0 a ->
  a <= length times /\ forall j, j < length times -> ltb (nth j times zero) thr = (j <? a).
Proof.
  intros E.
  assert (Hin : forall j, In j (compress (act_flags thr times)) <-> j < a) by (intros; rewrite E, in_seq; lia).
  split.
  - destruct a; [lia|]. apply (active_bound thr), Hin. lia.
  - intros j Hj. rewrite <- act_flags_nth by auto. apply eq_true_iff_eq.
    rewrite <- compress_In, Hin, Nat.ltb_lt. tauto.
Qed.

(* the first r steps of a block lead from boundary 0 to boundary r, in time and in value *)
Lemma block_thread b n times dts (U0 UE : list V) u r :
  let f := accepted_step b times dts U0 UE in
  (forall j, j < n -> link (f j) (nth (S j) times zero)) ->
  nth 0 U0 dV = u -> (forall j, j < n -> nth (S j) U0 dV = nth j UE dV) ->
  r <= S n ->
  tthread (nth 0 times zero) (map f (seq 0 r)) (block_boundary times dts n r) /\
  vthread u (map f (seq 0 r)) (nth r (u :: UE) dV).
Proof.
  intros f Hlink Hu0 Hch Hr. split.
  - apply (thread_seq (@a_start T V) link f (block_boundary times dts n)).
    intros j Hj. unfold block_boundary. rewrite (proj2 (Nat.leb_le j n)) by lia. split; auto.
    destruct (Nat.leb_spec (S j) n); [apply Hlink; lia|].
    left. replace n with j by lia. reflexivity.
  - apply (thread_seq (@a_u0 T V) (fun x v => v = a_uend x) f (fun j => nth j (u :: UE) dV)).
    intros [|j] Hj; simpl; auto. split; auto. apply Hch. lia.
Qed.

(* block_step when the active slots are 0..n, each continuing its predecessor: the accepted steps (those before
   restart_at, or all) lead from the time of slot 0 to the time c at which slot 0 goes on, and from the value
   handed in to the value handed on (u[0] of the restarted step is the value it started from) *)
Lemma block_step_prefix st n u st' u' :
  S n <= length (s_u0 st) -> S n <= length (s_ue st) ->
  (forall j U0 UE, j < n -> link (accepted_step (s_blocks st) (s_time st) (s_dt st) U0 UE j) (nth (S j) (s_time st) zero)) ->
  block_step st (seq 0 (S n)) u = (st', u') ->
  exists B c, s_acc st' = s_acc st ++ B /\
    tthread (nth 0 (s_time st) zero) B c /\ vthread u B u' /\
    s_time st' = chain_times (seq 0 (S n)) (s_dt st') (upd 0 c (s_time st)) /\
    s_blocks st' = S (s_blocks st) /\
    length (s_u0 st') = length (s_u0 st) /\ length (s_ue st') = length (s_ue st).
Proof.
  intros Lu Le Hlink E. unfold TimeLoop.block_step in E.
  destruct (Hc (s_blocks st) (seq 0 (S n)) (s_time st) (s_dt st) u) as (Lr & Lu0 & Lue & _ & Hu0 & Hch).
  set (bo := oracle (s_blocks st) (seq 0 (S n)) (s_time st) (s_dt st) u) in *. rewrite seq_length in *.
  specialize (Hu0 (Nat.lt_0_succ n)). assert (Hch' := fun j Hj => Hch j (proj1 (Nat.succ_lt_mono j n) Hj)).
  pose proof (fun r => @block_thread (s_blocks st) n (s_time st) (s_dt st) _ _ u r (fun j => Hlink j _ _) Hu0 Hch')
    as Hth.
  rewrite (map_ext_in _ (accepted_step (s_blocks st) (s_time st) (s_dt st) (bo_u0 bo) (bo_uend bo))) in E.
  2: { intros j Hj. apply in_seq in Hj. unfold accepted_step. cbv zeta. rewrite seq_nth by lia. reflexivity. }
  replace (last (seq 0 (S n)) 0) with n in E by (rewrite seq_S, last_last; auto).
  unfold block_boundary in Hth. destruct (first_true (bo_restart bo)) as [i|] eqn:Ft.
  - apply first_true_Some in Ft as (Hi & _). rewrite Lr in Hi. destruct (Hth i) as (Ht & Hv); [lia|].
    apply pair_equal_spec in E as (<- & <-). cbn [s_acc s_time s_dt s_u0 s_ue s_blocks].
    rewrite !scatter_length, scatter_read by auto. replace (Nat.min i (S n)) with i by lia.
    rewrite (proj2 (Nat.leb_le i n)) in Ht by lia.
    replace (nth i (bo_u0 bo) dV) with (nth i (u :: bo_uend bo) dV)
      by (symmetry; destruct i; [exact Hu0 | apply Hch, Hi]).
    eexists _, _. split; [reflexivity|]. split; [exact Ht|]. split; [exact Hv | repeat split].
  - destruct (Hth (S n)) as (Ht & Hv); [lia|].
    apply pair_equal_spec in E as (<- & <-). cbn [s_acc s_time s_dt s_u0 s_ue s_blocks].
    rewrite !scatter_length, scatter_read by auto. rewrite Nat.min_id.
    rewrite (proj2 (Nat.leb_gt (S n) n)) in Ht by lia.
    eexists _, _. split; [reflexivity|]. split; [exact Ht|]. split; [exact Hv | repeat split].
Qed.

Lemma block_step_pfx st asl u st1 u1 :
  block_step st asl u = (st1, u1) -> s_pfx st1 = true -> s_pfx st = true /\ asl = seq 0 (length asl).
Proof.
  intros E Hp. unfold TimeLoop.block_step in E.
  assert (X : s_pfx st1 = s_pfx st && nat_list_eqb asl (seq 0 (length asl)))
    by (destruct (first_true _); apply pair_equal_spec in E as (<- & _); reflexivity).
  rewrite Hp in X. symmetry in X. apply andb_true_iff in X as (H1 & H2). auto using nat_list_eqb_eq.
Qed.

(* loop_invariant is kept by a block as long as the active slots have been a prefix *)
Lemma block_step_invariant st u st' u' :
  (s_pfx st = true -> loop_invariant st u) -> existsb (fun b => b) (act_flags thr (s_time st)) = true ->
  block_step st (compress (act_flags thr (s_time st))) u = (st', u') ->
  s_pfx st' = true -> loop_invariant st' u'.
Proof.
  intros HJ Ex E Hp. destruct (block_step_pfx _ _ _ E Hp) as (Hp0 & Ecomp).
  destruct (HJ Hp0) as [HP Lt Lu Le Jt Jv Jn]. apply existsb_compress in Ex.
  rewrite Ecomp in E. destruct (length (compress _)) as [|n]; [lia|].
  destruct (prefix_active _ _ Ecomp) as (HaP & Hact). rewrite Lt in HaP, Hact.
  apply block_step_prefix in E as (B & c & EA & Ht & Hv & ET & EB & Lu' & Le'); try lia.
  2: { intros j U0 UE Hj. apply Jn; [lia|]. rewrite Hact by lia. apply Nat.ltb_lt. lia. }
  destruct (@chain_times_prefix (s_dt st') (upd 0 c (s_time st)) n)
    as (H0 & Hchn & Hrest); [rewrite upd_length; lia|].
  constructor.
  - exact HP.
  - rewrite ET, chain_times_length, upd_length. exact Lt.
  - congruence.
  - congruence.
  - rewrite EA, ET, H0, nth_upd_eq by lia. eapply thread_app; eauto.
  - rewrite EA. eapply thread_app; eauto.
  - intros j U0 UE Hj. rewrite ET, EB. destruct (Nat.lt_ge_cases j n) as [Hjn|Hjn].
    + intros _. left. apply Hchn, Hjn.
    + rewrite Hrest, nth_upd_neq, Hact by lia. rewrite (proj2 (Nat.ltb_ge (S j) (S n))) by lia. discriminate.
Qed.

End Tiling.

Theorem run_invariant fuel t0 tend tol dts u0 uend st :
  paradiag = false -> contract ->
  run fuel t0 tend tol dts u0 = Finished uend st -> s_pfx st = true ->
  loop_invariant t0 dts u0 (sub tend tol) st uend /\ ltb (nth 0 (s_time st) zero) (sub tend tol) = false.
Proof.
  intros Hp Hc E Hpf.
  apply (run_inv (fun st u => s_pfx st = true -> loop_invariant t0 dts u0 (sub tend tol) st u)) in E as (_ & HJ & Hex).
  - specialize (HJ Hpf). split; auto. apply act_flags_none; auto. rewrite (j_lt HJ). apply (j_pos HJ).
  - intros st0 u st1 u1. apply block_step_invariant; auto.
  - intros HP _. constructor; simpl; rewrite ?map_length; auto using init_times_length.
    + apply init_times_nth, HP.
    + intros j U0 UE Hj _. right. simpl. rewrite !init_times_nth by lia. repeat split; auto; lia.
Qed.

End Generic.

Section Statements.
Variables T V : Type.
Variables (add sub : T -> T -> T) (ltb : T -> T -> bool) (zero : T).
Variable sumT : list T -> T.
Variable dV : V.
Variable oracle : nat -> list nat -> list T -> list T -> V -> blockout T V.

Notation run := (run add sub ltb zero sumT dV false oracle).

Theorem tiling_chain fuel t0 tend tol dts u0 uend st :
  contract dV oracle -> run fuel t0 tend tol dts u0 = Finished uend st -> s_pfx st = true ->
  tiled add zero sumT t0 dts (s_acc st) /\
  (forall x, hd_error (s_acc st) = Some x -> a_start x = add t0 (psum sumT dts 0)).
Proof.
  intros Hc E Hp. apply run_invariant in E as (Jst & _); auto.
  destruct (thread_spec _ _ _ _ _ (j_time Jst)) as (Ha & Hh & _). split; assumption.
Qed.

Theorem chain fuel t0 tend tol dts u0 uend st :
  contract dV oracle -> run fuel t0 tend tol dts u0 = Finished uend st -> s_pfx st = true ->
  chainedV (s_acc st) /\
  (forall x, hd_error (s_acc st) = Some x -> a_u0 x = u0) /\
  match lastopt (s_acc st) with Some x => uend = a_uend x | None => uend = u0 end.
Proof.
  intros Hc E Hp. apply run_invariant in E as (Jst & _); auto.
  exact (thread_spec _ _ _ _ _ (j_val Jst)).
Qed.

Theorem reaches_Tend fuel t0 tend tol dts u0 uend st :
  contract dV oracle -> run fuel t0 tend tol dts u0 = Finished uend st -> s_pfx st = true ->
  exists t, nexts add zero sumT t0 dts (s_acc st) t /\ ltb t (sub tend tol) = false.
Proof.
  intros Hc E Hp. apply run_invariant in E as (Jst & Hex); auto.
  exists (nth 0 (s_time st) zero). split; [apply (thread_spec _ _ _ _ _ (j_time Jst)) | exact Hex].
Qed.

(* with an associative addition and sum() = left fold, the two forms of `link` coincide: literal tiling *)
Section Exact.
Hypothesis add_assoc : forall a b c, add (add a b) c = add a (add b c).
Hypothesis sum_snoc : forall l x, sumT (l ++ [x]) = add (sumT l) x.

Lemma link_exact t0 dts (x : acc T V) t : link add zero sumT t0 dts x t -> t = add (a_start x) (a_dt x).
Proof.
  intros [H | (Hb & Hs & Hd & Hst & Ht)]; auto.
  rewrite Ht, Hst, Hd. unfold TimeLoop.psum. rewrite (firstn_S_nth zero) by auto. rewrite sum_snoc, add_assoc. auto.
Qed.

Theorem tiling_exact fuel t0 tend tol dts u0 uend st :
  contract dV oracle -> run fuel t0 tend tol dts u0 = Finished uend st -> s_pfx st = true ->
  adj (fun x y : acc T V => a_start y = add (a_start x) (a_dt x)) (s_acc st).
Proof.
  intros Hc E Hp. apply run_invariant in E as (Jst & _); auto.
  apply (thread_spec _ _ _ _ _ (thread_impl _ _ _ (@link_exact t0 dts) _ _ _ (j_time Jst))).
Qed.
End Exact.
End Statements.

From Coq Require Import PrimFloat.

Definition f01 : PrimFloat.float := 0x1.999999999999ap-4%float.   (* 0.1 *)
Definition ftol : PrimFloat.float := 0x1.4p-49%float.             (* 10 * 2^-52 *)

Lemma counting_contract T : contract 0 (@counting_oracle T).
Proof.
  intros b asl times dts u. simpl. rewrite !map_length, seq_length. repeat split; auto.
  - intros H. rewrite nth_map_seq by auto. lia.
  - intros j Hj. rewrite !nth_map_seq by lia. lia.
Qed.

Section CountZ.
Open Scope Z_scope.
Variables (P : nat) (d t0 tend tol : Z).

Notation zoracle := (@counting_oracle Z).
Notation zblock := (block_step Z.add 0 0%nat zoracle).
Notation zrun := (run Z.add Z.sub Z.ltb 0 (fold_sum Z.add 0) 0%nat false zoracle).
Let thr := tend - tol.
Let dts := repeat d P.

(* the step sizes never change, and only the initial state has no accepted step *)
Definition count_invariant (st : state Z nat) : Prop :=
  s_dt st = dts /\ length (s_time st) = P /\ Forall (fun a => a_dt a = d) (s_acc st) /\
  (s_acc st = [] -> s_time st = init_times Z.add (fold_sum Z.add 0) t0 dts).

Lemma zblock_invariant st u st' u' :
  count_invariant st -> existsb (fun b => b) (act_flags Z.ltb false thr (s_time st)) = true ->
  zblock st (compress (act_flags Z.ltb false thr (s_time st))) u = (st', u') -> count_invariant st'.
Proof.
  intros (Kd & Kt & Ka & _) Ex E. apply existsb_compress in Ex.
  assert (Ka' : Forall (fun a => a_dt a = d) (s_acc st')).
  { apply Forall_forall. intros x Hx. eapply block_step_accepted in Hx as [H|(Hs & _ & ->)]; eauto.
    - exact (proj1 (Forall_forall _ _) Ka x H).
    - apply active_bound in Hs. rewrite Kd, nth_indep with (d' := d); [apply nth_repeat|].
      unfold dts. rewrite repeat_length. lia. }
  unfold TimeLoop.block_step in E. cbn [counting_oracle bo_restart bo_u0 bo_uend bo_newdt] in E.
  rewrite first_true_all_false, Nat.min_id in E. apply pair_equal_spec in E as (<- & _).
  unfold count_invariant. cbn [s_dt s_time s_acc] in *.
  repeat split; auto.
  - rewrite chain_times_length, upd_length. auto.
  - intros X. apply (f_equal (@length _)) in X. rewrite app_length, map_length, seq_length in X. simpl in X. lia.
Qed.

(* N steps of size d, each starting where its predecessor ends: the thread ends N d after its start, and
   its last step starts d before that *)
Lemma count_arith (A : list (acc Z nat)) : forall i c,
  thread (@a_start Z nat) (fun x t => t = a_start x + a_dt x) i A c ->
  Forall (fun x => a_dt x = d) A -> Forall (fun x => a_start x < thr) A ->
  c = i + Z.of_nat (length A) * d /\ (A <> [] -> c - d < thr).
Proof.
  induction A as [|x A IH]; intros i c H Hd Hs.
  - simpl in H. split; [simpl; lia | congruence].
  - destruct H as (Hk & m & -> & H).
    destruct (IH _ _ H (Forall_inv_tail Hd) (Forall_inv_tail Hs)) as (Hc & Hl).
    apply Forall_inv in Hd, Hs. simpl length. rewrite Nat2Z.inj_succ. split; [lia|]. intros _.
    destruct A; [simpl in H; lia | apply Hl; discriminate].
Qed.

Theorem count_exact fuel uend st :
  zrun fuel t0 tend tol dts 0%nat = Finished uend st -> s_pfx st = true ->
  let N := Z.of_nat (length (s_acc st)) in
  0 < N /\ t0 + (N - 1) * d < thr /\ thr <= t0 + N * d.
Proof.
  intros E Hp N.
  pose proof (link_exact (zero:=0) (sumT:=fold_sum Z.add 0) (fun a b c => eq_sym (Z.add_assoc a b c))
                (fun l x => fold_left_app Z.add l [x] 0) (V:=nat) (t0:=t0) (dts:=dts)) as Hex.
  assert (Hnb : Forall (fun x => a_start x < thr) (s_acc st)).
  { apply Forall_forall. intros x Hx. apply Z.ltb_lt. eapply no_start_beyond; eauto. }
  pose proof E as EJ. apply run_invariant in EJ as (Jst & Hexit); auto using counting_contract.
  apply run_inv with (I := fun st _ => count_invariant st) in E as (Ex & (_ & _ & Kdt & Kinit) & Hstop).
  2: { intros; eapply zblock_invariant; eauto. }
  2: { repeat split; simpl; auto. rewrite init_times_length. apply repeat_length. }
  fold thr in Ex, Hstop, Hexit.
  assert (HA : s_acc st <> []) by (intros X; rewrite (Kinit X) in Hstop; congruence).
  destruct (count_arith _ _ (thread_impl _ _ _ Hex _ _ _ (j_time Jst)) Kdt Hnb) as (Hc & Hl).
  specialize (Hl HA). apply Z.ltb_ge in Hexit. subst N.
  destruct (s_acc st); [congruence|]. simpl length in *. rewrite Nat2Z.inj_succ in *.
  change (psum (fold_sum Z.add 0) dts 0) with 0 in Hc. lia.
Qed.
End CountZ.
