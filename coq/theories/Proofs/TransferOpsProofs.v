(* C11 — proofs about Model/TransferOps.v: the validators of interpolation rows are sound for every polynomial below the
   order (moment conditions, Base/Poly.v), what the supports they are run against contain, R P = I, and the
   neighbour selection of transfer_helper.py meets its specification. *)
From Coq Require Import ZArith QArith Qabs List Bool Lia ZifyBool Permutation Sorted.
From PySDC Require Import Base.Dyadic Base.Poly Model.TransferOps.
Import ListNotations.
Open Scope Z_scope.

Lemma In_combine_nth {A B} (a : list A) (b : list B) da db i :
  length a = length b -> (i < length a)%nat -> In (nth i a da, nth i b db) (combine a b).
Proof. intros E Hi. rewrite <- combine_nth by exact E. apply nth_In. rewrite combine_length. lia. Qed.

Lemma In_combine_seq {B} (l : list B) d i : (i < length l)%nat -> In (i, nth i l d) (combine (seq 0 (length l)) l).
Proof.
  intros Hi. rewrite <- (seq_nth 0 0 Hi) at 1. apply In_combine_nth; rewrite seq_length; lia.
Qed.

Lemma NoDup_map_inj_on {A B} (f : A -> B) l :
  (forall x y, In x l -> In y l -> f x = f y -> x = y) -> NoDup l -> NoDup (map f l).
Proof.
  intros Hinj Hnd. induction Hnd as [|a l Hn Hnd IH]; cbn [map]; constructor.
  - rewrite in_map_iff. intros [y [E Hy]]. apply Hn.
    rewrite (Hinj a y); [exact Hy | left; reflexivity | right; exact Hy | symmetry; exact E].
  - apply IH. intros x y Hx Hy. apply Hinj; right; assumption.
Qed.

Lemma NoDup_app_l {A} (a b : list A) : NoDup (a ++ b) -> NoDup a.
Proof.
  induction a as [|x a IH]; cbn [app]; intros H; [constructor|].
  inversion H as [|? ? Hn Hd]; subst. constructor; [|exact (IH Hd)]. rewrite in_app_iff in Hn. tauto.
Qed.

Lemma firstn_skipn_In {A} (x : A) k l : In x l <-> In x (firstn k l) \/ In x (skipn k l).
Proof. rewrite <- in_app_iff, firstn_skipn. reflexivity. Qed.

Lemma zseq_In n : forall lo x, In x (zseq lo n) <-> lo <= x < lo + Z.of_nat n.
Proof.
  induction n as [|n IH]; intros lo x; cbn [zseq In]; [|rewrite IH]; lia.
Qed.

Lemma zseq_length n : forall lo, length (zseq lo n) = n.
Proof. induction n as [|n IH]; intros lo; cbn [zseq length]; [reflexivity|]. rewrite IH. reflexivity. Qed.

Lemma zseq_NoDup n : forall lo, NoDup (zseq lo n).
Proof.
  induction n as [|n IH]; intros lo; cbn [zseq]; constructor; [rewrite zseq_In; lia | apply IH].
Qed.

Lemma combine_zseq_nth {A} (l : list A) d : forall j,
  combine l (zseq j (length l)) = map (fun i => (nth (Z.to_nat (i - j)) l d, i)) (zseq j (length l)).
Proof.
  induction l as [|x l IH]; intros j; cbn [length zseq combine map]; [reflexivity|].
  rewrite Z.sub_diag, IH. f_equal. apply map_ext_in. intros i Hi. apply zseq_In in Hi.
  replace (Z.to_nat (i - j)) with (S (Z.to_nat (i - (j + 1)))) by lia. reflexivity.
Qed.

Lemma nodupb_NoDup l : nodupb l = true -> NoDup l.
Proof.
  induction l as [|a l IH]; cbn [nodupb]; intros H; constructor; apply andb_prop in H as [Ha Hl].
  - intro Hin. apply negb_true_iff, not_true_iff_false in Ha. apply Ha, existsb_exists.
    exists a. split; [exact Hin | apply Z.eqb_refl].
  - apply IH, Hl.
Qed.

Lemma Z_half_parity x : x = 2 * (x / 2) + (if Z.even x then 0 else 1).
Proof. rewrite <- Zmod_even. apply Z.div_mod. lia. Qed.

Lemma mod_inj_window n a b : 0 < n -> a mod n = b mod n -> Z.abs (a - b) < n -> a = b.
Proof.
  intros Hn E Hd. pose proof (Z.div_mod a n) as Ha. pose proof (Z.div_mod b n) as Hb. rewrite E in Ha.
  assert (a / n = b / n) by nia. nia.
Qed.

Lemma mod_window size a : 0 < size -> - size <= a < 2 * size ->
  a mod size = if a <? 0 then a + size else if a <? size then a else a - size.
Proof.
  intros Hs Ha. symmetry. destruct (Z.ltb_spec a 0); [|destruct (Z.ltb_spec a size)].
  - apply (Z.mod_unique_pos a size (-1)); lia.
  - apply (Z.mod_unique_pos a size 0); lia.
  - apply (Z.mod_unique_pos a size 1); lia.
Qed.

Open Scope Q_scope.

Definition Qw (w : list dy) : list Q := map D2Q w.

(* Taylor shift:  peval (pshift c x h) t == peval c (x + t h), same length. *)

Fixpoint padd (a b : list Q) : list Q :=
  match a, b with
  | [], _ => b
  | _, [] => a
  | x :: a', y :: b' => (x + y) :: padd a' b'
  end.

Definition pscale (s : Q) (a : list Q) : list Q := map (Qmult s) a.

Fixpoint pshift (c : list Q) (x h : Q) : list Q :=
  match c with
  | [] => []
  | a :: c' => let s := pshift c' x h in padd [a] (padd (pscale x s) (0 :: pscale h s))
  end.

Lemma peval_padd a : forall b t, peval (padd a b) t == peval a t + peval b t.
Proof.
  induction a as [|x a IH]; intros [|y b] t; cbn [padd]; rewrite ?peval_cons, ?IH; cbn [peval fold_right]; ring.
Qed.

Lemma peval_pscale s a t : peval (pscale s a) t == s * peval a t.
Proof.
  induction a as [|x a IH]; cbn [pscale map]; [cbn; ring|].
  fold (pscale s a). rewrite !peval_cons, IH. ring.
Qed.

Lemma peval_pshift c x h : forall t, peval (pshift c x h) t == peval c (x + t * h).
Proof.
  induction c as [|a c IH]; intros t; cbn [pshift]; [reflexivity|].
  rewrite !peval_padd, !peval_cons, !peval_pscale, IH. cbn [peval fold_right]. ring.
Qed.

Lemma length_padd a : forall b, length (padd a b) = Nat.max (length a) (length b).
Proof.
  induction a as [|x a IH]; intros [|y b]; cbn [padd length]; try reflexivity.
  rewrite IH. reflexivity.
Qed.

Lemma length_pshift c x h : length (pshift c x h) = length c.
Proof.
  induction c as [|a c IH]; cbn [pshift]; [reflexivity|].
  rewrite !length_padd. cbn [length]. unfold pscale. rewrite !map_length, IH. lia.
Qed.

Lemma D2Q_imoment w : forall xs k, D2Q (imoment w xs k) == moment (Qw w) (Qw xs) k.
Proof.
  unfold moment, Qw.
  induction w as [|wi w IH]; intros [|xi xs] k; cbn [imoment wsum map]; try reflexivity.
  rewrite D2Q_add, D2Q_mul, D2Q_dpow, IH. reflexivity.
Qed.

(* the tolerance of the k-th moment condition, as a rational *)
Definition row_tol (w xs : list dy) (x rtol atol : dy) (k : nat) : Q := D2Q (row_bound w xs x rtol atol k).

Lemma check_row_moment_sound w xs x rtol atol k :
  check_row_moment w xs x rtol atol k = true ->
  Qabs (moment (Qw w) (Qw xs) k - qpow (D2Q x) k) <= row_tol w xs x rtol atol k.
Proof.
  unfold check_row_moment, row_tol. rewrite dleb_abs_sub_spec, D2Q_imoment, D2Q_dpow.
  intros H; exact H.
Qed.

(* A row accepted by the validator reproduces EVERY polynomial of degree < number of source points
   at the target abscissa, with the stated bound. *)
Theorem interp_row_sound w xs x rtol atol :
  check_interp_row w xs x rtol atol = true ->
  forall c, (length c <= length xs)%nat ->
  Qabs (wsum (Qw w) (Qw xs) (peval c) - peval c (D2Q x)) <= abs_lin_from 0 c (row_tol w xs x rtol atol).
Proof.
  intros Hc c Hlen. apply andb_prop in Hc as [_ Hall]. rewrite wsum_peval, peval_lin_from.
  exact (moment_checks_bound _ _ _ _ _ Hall (check_row_moment_sound w xs x rtol atol) c Hlen).
Qed.

Lemma wsum_Qw_dZ w os f : (forall a b, a == b -> f a == f b) ->
  wsum w (Qw (map dZ os)) f == wsum w (map inject_Z os) f.
Proof.
  intros Hf. unfold Qw. revert os. induction w as [|wi w IH]; intros [|o os]; cbn [wsum map]; try reflexivity.
  rewrite IH, (Hf _ _ (D2Q_dZ o)). reflexivity.
Qed.

(* The same for a row over integer offsets (in units of a mesh width h) around an arbitrary point x:
   for every polynomial (global monomial basis), every x and every h. The bound is expressed in the Taylor
   coefficients  pshift c x h  of the polynomial at x (in units of h). *)
Theorem interp_row_sound_affine w os rtol atol :
  check_interp_row w (map dZ os) d0 rtol atol = true ->
  forall c x h, (length c <= length os)%nat ->
  Qabs (wsum (Qw w) (map (fun o => x + inject_Z o * h) os) (peval c) - peval c x)
  <= abs_lin_from 0 (pshift c x h) (row_tol w (map dZ os) d0 rtol atol).
Proof.
  intros Hc c x h Hlen.
  pose proof (interp_row_sound _ _ _ _ _ Hc (pshift c x h)) as H.
  rewrite length_pshift, map_length in H. specialize (H Hlen).
  rewrite wsum_Qw_dZ, peval_pshift in H by (intros a b; apply peval_ext).
  rewrite wsum_affine, (peval_ext c x (x + D2Q d0 * h)) by (rewrite D2Q_d0; ring).
  rewrite (wsum_ext _ _ _ _ (peval_pshift c x h)) in H. exact H.
Qed.

(* BaseTransfer.Pcoll / Rcoll: one interpolation row per destination node *)
Lemma check_node_transfer_row P src dst rtol atol :
  check_node_transfer P src dst rtol atol = true ->
  forall i, (i < length dst)%nat ->
  check_interp_row (nth i P []) src (nth i dst d0) rtol atol = true.
Proof.
  intros Hc i Hi. apply andb_prop in Hc as [Hl Hall]. apply Nat.eqb_eq in Hl. rewrite forallb_forall in Hall.
  apply (Hall (nth i P [], nth i dst d0)), In_combine_nth; lia.
Qed.

Theorem node_transfer_sound P src dst rtol atol :
  check_node_transfer P src dst rtol atol = true ->
  forall i, (i < length dst)%nat ->
  forall c, (length c <= length src)%nat ->
  Qabs (wsum (Qw (nth i P [])) (Qw src) (peval c) - peval c (D2Q (nth i dst d0)))
  <= abs_lin_from 0 c (row_tol (nth i P []) src (nth i dst d0) rtol atol).
Proof.
  intros Hc i Hi. apply interp_row_sound, check_node_transfer_row; assumption.
Qed.

Lemma wsum_const_one r : forall s, length r = length s -> wsum (Qw r) (Qw s) (fun _ => 1) == qsum (Qw r).
Proof.
  unfold Qw, qsum. induction r as [|a r IH]; intros [|b s] E; try discriminate E; cbn [wsum map fold_right]; [reflexivity|].
  injection E as E. rewrite IH by exact E. ring.
Qed.

(* rows sum to one: the moment condition of order 0 *)
Corollary interp_row_sums_to_one w xs x rtol atol :
  check_interp_row w xs x rtol atol = true -> (0 < length xs)%nat ->
  Qabs (qsum (Qw w) - 1) <= row_tol w xs x rtol atol 0.
Proof.
  intros Hc Hs. apply andb_prop in Hc as [Hl Hall]. apply Nat.eqb_eq in Hl. rewrite forallb_forall in Hall.
  rewrite <- (wsum_const_one w xs Hl).
  apply (check_row_moment_sound w xs x rtol atol 0), Hall, in_seq. lia.
Qed.

(* (row . u): the dense row applied to coarse data u given as a function of the column index *)
Fixpoint apply_from (j : Z) (row : list dy) (u : Z -> Q) : Q :=
  match row with
  | [] => 0
  | a :: r => D2Q a * u j + apply_from (j + 1)%Z r u
  end.
Definition apply_row (row : list dy) (u : Z -> Q) : Q := apply_from 0 row u.

Lemma qsum_cons a l : qsum (a :: l) = a + qsum l.
Proof. reflexivity. Qed.

Lemma qsum_ext {A} (f g : A -> Q) l : (forall c, In c l -> f c == g c) -> qsum (map f l) == qsum (map g l).
Proof.
  induction l as [|a l IH]; intros H; cbn [map]; [reflexivity|].
  rewrite !qsum_cons, IH, (H a (in_eq a l)) by (intros; apply H, in_cons; assumption). reflexivity.
Qed.

Lemma qsum_zero {A} (l : list A) : qsum (map (fun _ => 0) l) == 0.
Proof. induction l as [|a l IH]; cbn [map]; [reflexivity|]. rewrite qsum_cons, IH. ring. Qed.

(* a sum over l of a function vanishing outside cols (cols within l, both duplicate-free) is the sum over cols *)
Lemma qsum_support (f : Z -> Q) cols : forall l,
  NoDup cols -> NoDup l -> incl cols l -> (forall c, In c l -> ~ In c cols -> f c == 0) ->
  qsum (map f l) == qsum (map f cols).
Proof.
  induction cols as [|c0 cols IH]; intros l Hc Hl Hin Hz.
  - rewrite <- (qsum_zero l). apply qsum_ext. intros c Hcl. apply Hz; [exact Hcl | intros []].
  - destruct (in_split c0 l (Hin c0 (in_eq _ _))) as [l1 [l2 ->]].
    inversion Hc as [|? ? Hn Hc']; subst.
    pose proof (NoDup_remove_2 _ _ _ Hl) as Hl2. apply NoDup_remove_1 in Hl.
    cbn [map]. rewrite map_app, qsum_app. cbn [map]. rewrite !qsum_cons, <- (IH (l1 ++ l2) Hc' Hl).
    + rewrite map_app, qsum_app. ring.
    + intros c Hcc. destruct (in_elt_inv _ _ _ _ (Hin c (in_cons _ _ _ Hcc))) as [E|H]; [|exact H].
      subst c. contradiction.
    + intros c Hcl Hnc. apply Hz.
      * apply in_app_or in Hcl as [H|H]; apply in_or_app; [left | right; right]; exact H.
      * intros [E|E]; [subst c; exact (Hl2 Hcl) | exact (Hnc E)].
Qed.

Lemma getcol_cons a r c : (0 <= c)%Z -> getcol (a :: r) (c + 1) = getcol r c.
Proof.
  intros Hc. unfold getcol.
  replace (c + 1 <? 0)%Z with false by lia. replace (c <? 0)%Z with false by lia.
  replace (Z.to_nat (c + 1)) with (S (Z.to_nat c)) by lia. reflexivity.
Qed.

Lemma combine_zseq_getcol row : forall j,
  combine (zseq j (length row)) row = map (fun c => (c, getcol row (c - j))) (zseq j (length row)).
Proof.
  induction row as [|a r IH]; intros j; cbn [length zseq combine map]; [reflexivity|].
  rewrite Z.sub_diag, IH. f_equal. apply map_ext_in. intros c Hc. apply zseq_In in Hc.
  replace (c - j)%Z with (c - (j + 1) + 1)%Z by lia. rewrite getcol_cons by lia. reflexivity.
Qed.

Lemma apply_row_qsum row u :
  apply_row row u == qsum (map (fun c => D2Q (getcol row c) * u c) (zseq 0 (length row))).
Proof.
  assert (H : forall j, apply_from j row u
                        == qsum (map (fun cv => D2Q (snd cv) * u (fst cv)) (combine (zseq j (length row)) row))).
  { induction row as [|a r IH]; intros j; cbn [apply_from length zseq combine map]; [reflexivity|].
    rewrite qsum_cons, IH. reflexivity. }
  unfold apply_row. rewrite H, combine_zseq_getcol, map_map. cbn [fst snd].
  apply qsum_ext. intros c _. rewrite Z.sub_0_r. reflexivity.
Qed.

Lemma zeros_outside_spec row cols c :
  zeros_outside row cols = true -> In c (zseq 0 (length row)) -> ~ In c cols -> D2Q (getcol row c) == 0.
Proof.
  unfold zeros_outside. rewrite combine_zseq_getcol, forallb_forall. intros H Hc Hn.
  specialize (H _ (in_map _ _ _ Hc)). cbn [fst snd] in H. rewrite Z.sub_0_r in H.
  apply orb_prop in H as [H|H].
  - exfalso. apply Hn. apply existsb_exists in H as [y [Hy E]]. apply Z.eqb_eq in E. subst y. exact Hy.
  - apply deqb_spec in H. exact H.
Qed.

(* the sum over a support list of (column, offset) pairs *)
Lemma wsum_support (row : list dy) (u : Z -> Q) (f : Q -> Q) (pos : Z -> Q) sup :
  (forall col o, In (col, o) sup -> u col == f (pos o)) ->
  qsum (map (fun c => D2Q (getcol row c) * u c) (map fst sup))
  == wsum (Qw (map (getcol row) (map fst sup))) (map pos (map snd sup)) f.
Proof.
  unfold Qw. induction sup as [|[col o] sup IH]; intros H; cbn [map fst snd wsum]; [reflexivity|].
  rewrite qsum_cons, IH, (H col o (in_eq _ _)) by (intros; apply H, in_cons; assumption). reflexivity.
Qed.

Definition sup_tol (sup : list (Z * Z)) (row : list dy) (rtol : dy) : nat -> Q :=
  row_tol (map (getcol row) (map fst sup)) (map dZ (map snd sup)) d0 rtol d0.

(* MAIN THEOREM for spatial rows.  If the validator accepts [row] against the support [sup] then for EVERY
   polynomial p of degree < |sup| (global monomial basis), every point x, every mesh width h and every coarse
   data vector u that agrees with p at the support nodes  x + o h  (and vanishes on exempt columns outside the
   support), the row applied to u yields p(x) up to the stated bound. *)
Theorem sup_row_sound sup exempt row rtol :
  check_sup_row sup exempt row rtol = true ->
  forall c x h (u : Z -> Q), (length c <= length sup)%nat ->
  (forall col o, In (col, o) sup -> u col == peval c (x + inject_Z o * h)) ->
  (forall e, In e exempt -> ~ In e (map fst sup) -> u e == 0) ->
  Qabs (apply_row row u - peval c x) <= abs_lin_from 0 (pshift c x h) (sup_tol sup row rtol).
Proof.
  unfold check_sup_row. intros Hc c x h u Hlen Hu He.
  apply andb_prop in Hc as [Hc Hint]. apply andb_prop in Hc as [Hc Hzero]. apply andb_prop in Hc as [Hnd Hrange].
  apply nodupb_NoDup in Hnd. rewrite forallb_forall in Hrange.
  (* only the support columns contribute *)
  assert (E : apply_row row u == qsum (map (fun c => D2Q (getcol row c) * u c) (map fst sup))).
  { rewrite apply_row_qsum. apply qsum_support; [exact Hnd | apply zseq_NoDup | |].
    - intros col Hcol. apply zseq_In. specialize (Hrange _ Hcol). lia.
    - intros col Hcol Hn. destruct (in_dec Z.eq_dec col exempt) as [Hex|Hex].
      + rewrite (He col Hex Hn). ring.
      + rewrite (zeros_outside_spec row _ col Hzero Hcol); [ring|].
        intros H. apply in_app_or in H as [H|H]; contradiction. }
  rewrite E, (wsum_support row u (peval c) (fun o => x + inject_Z o * h) sup Hu).
  apply interp_row_sound_affine; [exact Hint|]. rewrite map_length. exact Hlen.
Qed.

Lemma apply_from_app a : forall b j u,
  apply_from j (a ++ b) u == apply_from j a u + apply_from (j + Z.of_nat (length a)) b u.
Proof.
  induction a as [|x a IH]; intros b j u; cbn [app apply_from length].
  - rewrite Z.add_0_r. ring.
  - rewrite IH. replace (j + 1 + Z.of_nat (length a))%Z with (j + Z.of_nat (S (length a)))%Z by lia. ring.
Qed.

Lemma apply_from_shift row : forall j u, apply_from (j + 1) row u == apply_from j row (fun c => u (c + 1)%Z).
Proof.
  induction row as [|a r IH]; intros j u; cbn [apply_from]; [reflexivity|]. rewrite IH. reflexivity.
Qed.

Lemma apply_row_pad row (u : Z -> Q) :
  u 0%Z == 0 -> u (Z.of_nat (length row) + 1)%Z == 0 ->
  apply_row (pad_row row) u == apply_row row (fun c => u (c + 1)%Z).
Proof.
  intros H0 H1. unfold apply_row, pad_row. cbn [apply_from].
  rewrite apply_from_app. cbn [apply_from].
  rewrite (Z.add_comm (0 + 1)), H0, H1, (apply_from_shift row 0). ring.
Qed.

Definition dotQ (a u : list Q) : Q := wsum a u (fun t => t).
Definition mvQ (P : list (list dy)) (u : list Q) : list Q := map (fun p => dotQ (Qw p) u) P.
Definition sumabs (u : list Q) : Q := qsum (map Qabs u).

Lemma dot_vscale a p : forall u, dotQ (Qw (vscale a p)) u == D2Q a * dotQ (Qw p) u.
Proof.
  unfold dotQ, Qw, vscale. induction p as [|x p IH]; intros u; [cbn [map wsum]; ring|].
  destruct u as [|y u]; cbn [map wsum]; [ring|]. rewrite IH, D2Q_mul. ring.
Qed.

Lemma dot_vadd a : forall b u, length a = length b ->
  dotQ (Qw (vadd a b)) u == dotQ (Qw a) u + dotQ (Qw b) u.
Proof.
  unfold dotQ, Qw. induction a as [|x a IH]; intros [|y b] u E; try discriminate E; [cbn [vadd map wsum]; ring|].
  destruct u as [|z u]; cbn [vadd map wsum]; [ring|]. injection E as E. rewrite IH, D2Q_add by exact E. ring.
Qed.

Lemma length_vadd a : forall b, length (vadd a b) = Nat.min (length a) (length b).
Proof. induction a as [|x a IH]; intros [|y b]; cbn [vadd length]; try reflexivity. rewrite IH. reflexivity. Qed.

Lemma length_lincomb r : forall P n, (forall p, In p P -> length p = n) -> length (lincomb r P n) = n.
Proof.
  induction r as [|a r IH]; intros [|p P] n H; cbn [lincomb]; try apply repeat_length.
  rewrite length_vadd. unfold vscale. rewrite map_length, (H p (in_eq _ _)), IH by (intros; apply H, in_cons; assumption). lia.
Qed.

Lemma dot_repeat0 n : forall u, dotQ (Qw (repeat d0 n)) u == 0.
Proof.
  unfold dotQ, Qw. induction n as [|n IH]; intros [|y u]; cbn [repeat map wsum]; try reflexivity.
  rewrite IH, D2Q_d0. ring.
Qed.

(* (r^T P) u = r^T (P u) *)
Lemma dot_lincomb r : forall P n u, (forall p, In p P -> length p = n) ->
  dotQ (Qw (lincomb r P n)) u == dotQ (Qw r) (mvQ P u).
Proof.
  induction r as [|a r IH]; intros [|p P] n u H; cbn [lincomb]; try (rewrite dot_repeat0; reflexivity).
  assert (HP : forall q, In q P -> length q = n) by (intros; apply H; right; assumption).
  rewrite dot_vadd, dot_vscale, (IH P n u HP).
  - unfold dotQ at 3. cbn [Qw map mvQ wsum]. reflexivity.
  - unfold vscale. rewrite map_length, (H p (in_eq _ _)), length_lincomb by exact HP. reflexivity.
Qed.

Lemma sumabs_nonneg u : 0 <= sumabs u.
Proof.
  unfold sumabs. induction u as [|z u IH]; [apply Qle_refl|]. cbn [map]. rewrite qsum_cons.
  exact (Qplus_le_compat 0 _ 0 _ (Qabs_nonneg z) IH).
Qed.

Lemma dot_close L : forall D tol u, 0 <= D2Q tol -> close_rows L D tol = true ->
  Qabs (dotQ (Qw L) u - dotQ (Qw D) u) <= D2Q tol * sumabs u.
Proof.
  unfold close_rows, dotQ.
  induction L as [|x L IH]; intros [|y D] tol [|z u] Ht H; try discriminate H; cbn [Qw map wsum];
    try exact (Qmult_le_0_compat _ _ Ht (sumabs_nonneg _)).
  cbn [length Nat.eqb combine forallb fst snd] in H.
  apply andb_prop in H as [Hl H]. apply andb_prop in H as [H1 H2].
  apply dleb_abs_sub_spec in H1.
  specialize (IH D tol u Ht). rewrite Hl, H2 in IH. specialize (IH eq_refl).
  fold (Qw L). fold (Qw D). unfold sumabs. cbn [map]. rewrite qsum_cons. fold (sumabs u).
  setoid_replace (D2Q x * z + wsum (Qw L) u (fun t => t) - (D2Q y * z + wsum (Qw D) u (fun t => t)))
    with ((D2Q x - D2Q y) * z + (wsum (Qw L) u (fun t => t) - wsum (Qw D) u (fun t => t))) by ring.
  eapply Qle_trans; [apply Qabs_triangle|]. rewrite Qmult_plus_distr_r, Qabs_Qmult.
  apply Qplus_le_compat; [|exact IH]. apply Qmult_le_compat_r; [exact H1 | apply Qabs_nonneg].
Qed.

(* the unit row delta_from j i n has its 1 in position i - j, if i lies in the window j .. j+n-1 at all *)
Lemma dot_delta_before n : forall j i u, (i < j)%nat -> dotQ (Qw (delta_from j i n)) u == 0.
Proof.
  unfold dotQ, Qw. induction n as [|n IH]; intros j i [|z u] Hi; cbn [delta_from map wsum]; try reflexivity.
  rewrite IH by lia.
  replace (Nat.eqb j i) with false by lia. rewrite D2Q_d0. ring.
Qed.

Lemma dot_delta n : forall j i u, (j <= i < j + n)%nat -> dotQ (Qw (delta_from j i n)) u == nth (i - j) u 0.
Proof.
  induction n as [|n IH]; intros j i u Hi; [lia|]. unfold dotQ in *. cbn [delta_from Qw map wsum].
  destruct u as [|z u]; [destruct (i - j)%nat; reflexivity|]. cbn [wsum]. fold (Qw (delta_from (S j) i n)).
  destruct (Nat.eqb_spec j i) as [->|Hne].
  - rewrite (dot_delta_before n (S i) i u), Nat.sub_diag, D2Q_d1 by lia. cbn [nth]. ring.
  - rewrite IH, D2Q_d0 by lia. replace (i - j)%nat with (S (i - S j)) by lia. cbn [nth]. ring.
Qed.

(* Restriction after prolongation returns every coarse vector u, entry by entry, up to tol * sum |u_j| *)
Theorem RP_identity R P n tol :
  check_RP R P n tol = true ->
  forall (u : list Q) i, (i < n)%nat ->
  Qabs (dotQ (Qw (nth i R [])) (mvQ P u) - nth i u 0) <= D2Q tol * sumabs u.
Proof.
  unfold check_RP. intros Hc u i Hi.
  apply andb_prop in Hc as [Hc Hrows]. apply andb_prop in Hc as [Hc HR]. apply andb_prop in Hc as [Ht HP].
  apply dleb_spec in Ht. rewrite D2Q_d0 in Ht. apply Nat.eqb_eq in HR. subst n.
  rewrite forallb_forall in HP, Hrows.
  pose proof (Hrows _ (In_combine_seq R [] i Hi)) as Hclose. apply andb_prop in Hclose as [_ Hclose]. cbn [fst snd] in Hclose.
  rewrite <- (dot_lincomb (nth i R []) P (length R) u) by (intros p Hp; apply Nat.eqb_eq, HP, Hp).
  pose proof (dot_delta (length R) 0 i u ltac:(lia)) as E. rewrite Nat.sub_0_r in E. rewrite <- E.
  apply dot_close; assumption.
Qed.

Open Scope Z_scope.

(* Membership in the two supports the rows are validated against; Props/C11.v reads off it that they are the k nearest
   coarse points. *)
(* periodic, odd fine index i: the coarse points r = i/2 - k/2 + 1 .. i/2 - k/2 + k (unwrapped), column r mod nc *)
Lemma per_support_In nc k i col o : Z.even i = false ->
  In (col, o) (per_support nc k i) <->
  exists r, i / 2 - k / 2 < r <= i / 2 - k / 2 + k /\ col = r mod nc /\ o = 2 * r - i.
Proof.
  intros Hodd. unfold per_support. rewrite Hodd, in_map_iff. generalize (i / 2 - k / 2). intros r0. split.
  - intros [j [E Hj]]. apply zseq_In in Hj. apply pair_equal_spec in E as [<- <-]. exists (r0 + 1 + j).
    split; [lia | split; reflexivity].
  - intros [r [Hr [-> ->]]]. exists (r - (r0 + 1)). rewrite zseq_In. split; [cbv zeta; do 2 f_equal|]; lia.
Qed.

(* non-periodic, even fine index i: a window of k consecutive points of the padded coarse grid *)
Lemma dir_support_In nc k i q o : Z.odd i = false ->
  In (q, o) (dir_support nc k i) <->
  0 <= q - Z.max 0 (Z.min (i / 2 - k / 2 + 1) (nc + 2 - k)) < k /\ o = 2 * q - (i + 1).
Proof.
  intros Heven. unfold dir_support. rewrite Heven, in_map_iff.
  generalize (Z.max 0 (Z.min (i / 2 - k / 2 + 1) (nc + 2 - k))). intros s. split.
  - intros [j [E Hj]]. apply zseq_In in Hj. apply pair_equal_spec in E as [<- <-]. lia.
  - intros [Hq ->]. exists (q - s). rewrite zseq_In. split; [cbv zeta; do 2 f_equal|]; lia.
Qed.

(* The neighbour selection of transfer_helper.py (next_neighbors / next_neighbors_periodic):
   sort by (distance, index), keep the first k, return the indices in increasing order. *)
Definition lex_le (a b : Z * Z) : Prop := fst a < fst b \/ (fst a = fst b /\ snd a <= snd b).

Lemma lex_leb_spec a b : lex_leb a b = true <-> lex_le a b.
Proof. unfold lex_leb, lex_le. lia. Qed.

Lemma lex_leb_total a b : lex_leb a b = false -> lex_le b a.
Proof. unfold lex_leb, lex_le. lia. Qed.

Lemma lex_le_trans a b c : lex_le a b -> lex_le b c -> lex_le a c.
Proof. unfold lex_le. lia. Qed.

Lemma insert_lex_perm a l : Permutation (insert_lex a l) (a :: l).
Proof.
  induction l as [|b l IH]; cbn [insert_lex]; [reflexivity|].
  destruct (lex_leb a b); [reflexivity|]. rewrite IH. apply perm_swap.
Qed.

Lemma sort_lex_perm l : Permutation (sort_lex l) l.
Proof.
  induction l as [|a l IH]; cbn [sort_lex fold_right]; [reflexivity|].
  fold (sort_lex l). rewrite insert_lex_perm, IH. reflexivity.
Qed.

Lemma insert_lex_sorted a l : StronglySorted lex_le l -> StronglySorted lex_le (insert_lex a l).
Proof.
  induction 1 as [|b l Hs IH Hall]; cbn [insert_lex]; [repeat constructor|].
  destruct (lex_leb a b) eqn:E.
  - apply lex_leb_spec in E. constructor; [constructor; assumption|]. constructor; [exact E|].
    eapply Forall_impl; [|exact Hall]. intros x. apply lex_le_trans, E.
  - apply lex_leb_total in E. constructor; [exact IH|].
    rewrite insert_lex_perm. constructor; assumption.
Qed.

Lemma sort_lex_sorted l : StronglySorted lex_le (sort_lex l).
Proof.
  induction l as [|a l IH]; cbn [sort_lex fold_right]; [constructor|]. apply insert_lex_sorted. exact IH.
Qed.

Lemma zsort_perm l : Permutation (zsort l) l.
Proof. unfold zsort. rewrite sort_lex_perm, map_map. cbn [fst]. rewrite map_id. reflexivity. Qed.

Lemma sorted_firstn_skipn (l : list (Z * Z)) : StronglySorted lex_le l ->
  forall k a b, In a (firstn k l) -> In b (skipn k l) -> lex_le a b.
Proof.
  induction 1 as [|x l Hs IH Hall]; intros [|k] a b Ha Hb; try contradiction Ha.
  destruct Ha as [<-|Ha]; [|exact (IH k a b Ha Hb)].
  rewrite Forall_forall in Hall. apply Hall, (firstn_skipn_In b k l). right. exact Hb.
Qed.

(* Specification of the selection, for distances  f (ps_i)  computed from the points as both helpers do (for a given list
   of distances take f the identity): k indices (or all, if there are fewer), pairwise distinct, inside the array,
   and every selected index precedes every unselected one in the (distance, index) order — the selection
   minimises the distance and ties go to the lower index, exactly as Python's stable sort breaks them. *)
Theorem select_nearest_spec (f : Z -> Z) ps k :
  let res := select_nearest (map f ps) k in
  length res = Nat.min k (length ps) /\ NoDup res /\
  (forall i, In i res -> 0 <= i < Z.of_nat (length ps)) /\
  (forall i j, In i res -> 0 <= j < Z.of_nat (length ps) -> ~ In j res ->
     f (getz ps i) < f (getz ps j) \/ (f (getz ps i) = f (getz ps j) /\ i < j)).
Proof.
  cbv zeta. unfold select_nearest.
  set (all := combine (map f ps) (zseq 0 (length (map f ps)))). set (srt := sort_lex all).
  assert (Hperm : Permutation srt all) by apply sort_lex_perm.
  assert (Hsel : forall i, In i (zsort (map snd (firstn k srt))) <-> exists d, In (d, i) (firstn k srt)).
  { intros i. rewrite zsort_perm, in_map_iff. split.
    - intros [[d i'] [<- Hin]]. exists d. exact Hin.
    - intros [d Hin]. exists (d, i). split; [reflexivity | exact Hin]. }
  assert (Hall : forall d i, In (d, i) srt <-> 0 <= i < Z.of_nat (length ps) /\ d = f (getz ps i)).
  { intros d i. rewrite Hperm. unfold all, getz. rewrite (combine_zseq_nth _ (f 0)), in_map_iff. split.
    - intros [i' [E Hi]]. apply pair_equal_spec in E as [<- <-]. rewrite zseq_In, map_length in Hi.
      rewrite map_nth, Z.sub_0_r. split; [lia | reflexivity].
    - intros [Hi ->]. exists i. rewrite map_nth, Z.sub_0_r, zseq_In, map_length. split; [reflexivity | lia]. }
  split; [|split; [|split]].
  - rewrite (Permutation_length (zsort_perm _)), map_length, firstn_length, (Permutation_length Hperm).
    unfold all. rewrite combine_length, zseq_length, map_length. lia.
  - apply (Permutation_NoDup (Permutation_sym (zsort_perm _))), (NoDup_app_l _ (map snd (skipn k srt))).
    rewrite <- map_app, firstn_skipn. apply (Permutation_NoDup (Permutation_map snd (Permutation_sym Hperm))).
    unfold all. rewrite (combine_zseq_nth _ 0), map_map. cbn [snd]. rewrite map_id. apply zseq_NoDup.
  - intros i H. apply Hsel in H as [d Hin]. apply (or_introl (B := In (d, i) (skipn k srt))), firstn_skipn_In, Hall in Hin. lia.
  - intros i j Hi Hj Hnj. apply Hsel in Hi as [d Hin].
    assert (Hd : In (d, i) srt) by (apply (firstn_skipn_In _ k); left; exact Hin). apply Hall in Hd as [_ ->].
    assert (Hjs : In (f (getz ps j), j) srt) by (apply Hall; split; [exact Hj | reflexivity]).
    apply (firstn_skipn_In _ k) in Hjs as [Hjs|Hjs].
    + exfalso. apply Hnj, Hsel. exists (f (getz ps j)). exact Hjs.
    + pose proof (sorted_firstn_skipn srt (sort_lex_sorted all) k _ _ Hin Hjs) as Hle.
      assert (i <> j) by (intros ->; apply Hnj, Hsel; exists (f (getz ps j)); exact Hin).
      unfold lex_le in Hle. cbn [fst snd] in Hle. lia.
Qed.
