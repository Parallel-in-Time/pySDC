(* C16 — proofs about the FieldsIO model (Model/FieldsIO.v). *)
From PySDC Require Import Base.Tactics Model.FieldsIO.
Open Scope Z_scope.

Lemma blen_app a b : blen (a ++ b) = blen a + blen b.
Proof. unfold blen. rewrite app_length. lia. Qed.

Lemma blen_nonneg a : 0 <= blen a.
Proof. unfold blen. lia. Qed.

Lemma firstn_app_exact {A} (a b : list A) n : length a = n -> firstn n (a ++ b) = a.
Proof. intros <-. rewrite <- (Nat.add_0_r (length a)), firstn_app_2, firstn_O. apply app_nil_r. Qed.

Lemma skipn_app_exact {A} (a b : list A) n : length a = n -> skipn n (a ++ b) = b.
Proof. intros <-. rewrite skipn_app, Nat.sub_diag, skipn_all. reflexivity. Qed.

Lemma slice_app a x b off len : blen a = off -> blen x = len -> slice off len (a ++ x ++ b) = x.
Proof.
  unfold blen, slice. intros Ha Hx.
  rewrite skipn_app_exact by lia. apply firstn_app_exact. lia.
Qed.

Lemma le_enc_length n x : length (le_enc n x) = n.
Proof. revert x. induction n; intros; simpl; auto. Qed.

Lemma pow256_S n : 256 ^ Z.of_nat (S n) = 256 * 256 ^ Z.of_nat n.
Proof. rewrite Nat2Z.inj_succ, Z.pow_succ_r by lia. reflexivity. Qed.

Lemma le_dec_enc n x : le_dec (le_enc n x) = x mod 256 ^ Z.of_nat n.
Proof.
  revert x. induction n; intros x.
  - simpl. rewrite Z.mod_1_r. reflexivity.
  - cbn [le_enc le_dec]. rewrite IHn, pow256_S, Z.rem_mul_r by lia. reflexivity.
Qed.

Lemma dec_int_enc n x : (0 < n)%nat -> in_range n x -> dec_int (le_enc n x) = x.
Proof.
  intros Hn. destruct n as [|m]; [inversion Hn|clear Hn].
  unfold in_range, dec_int, wrap_signed. rewrite le_enc_length, le_dec_enc, pow256_S.
  generalize (256 ^ Z.of_nat m). intros P H.
  replace (256 * P / 2) with (128 * P) in * by lia.
  destruct (Z_lt_le_dec x 0).
  - rewrite <- (Z.mod_unique x (256 * P) (-1) (x + 256 * P)) by lia.
    destruct (Z.ltb_spec (x + 256 * P) (128 * P)); lia.
  - rewrite Z.mod_small by lia.
    destruct (Z.ltb_spec x (128 * P)); lia.
Qed.

Lemma in_range_1 x : in_range 1 x <-> -128 <= x < 128.
Proof. unfold in_range. change (256 ^ Z.of_nat 1 / 2) with 128. lia. Qed.

Lemma le_enc_1 x : le_enc 1 x = [x mod 256].
Proof. reflexivity. Qed.

Lemma read_items_app k cnt b : fst (read_items k cnt b) ++ snd (read_items k cnt b) = b.
Proof. apply firstn_skipn. Qed.

Lemma read_items_spec k cnt b : 0 < k ->
  exists n, 0 <= n <= Z.max cnt 0 /\ (n = Z.max cnt 0 \/ blen (snd (read_items k cnt b)) < k) /\
    blen (fst (read_items k cnt b)) = n * k.
Proof.
  intros Hk. unfold read_items. cbn [fst snd].
  (* quotient and remainder of blen b by k, named so that lia sees no division *)
  pose proof (Z.div_mod (blen b) k ltac:(lia)) as E. pose proof (Z.mod_pos_bound (blen b) k Hk) as Hr.
  assert (Hq : 0 <= blen b / k) by (apply Z.div_pos; [apply blen_nonneg|exact Hk]).
  revert E Hr Hq. generalize (blen b / k), (blen b mod k). intros q r E Hr Hq.
  exists (Z.min (Z.max cnt 0) q).
  assert (Hnk : 0 <= Z.min (Z.max cnt 0) q * k <= k * q) by nia.
  unfold blen in *. rewrite firstn_length, skipn_length.
  repeat split; lia.
Qed.

Lemma read_items_exact k cnt x rest :
  0 < k -> 0 <= cnt -> blen x = cnt * k -> read_items k cnt (x ++ rest) = (x, rest).
Proof.
  intros Hk Hc Hx. unfold read_items.
  replace (Z.min (Z.max cnt 0) (blen (x ++ rest) / k)) with cnt.
  - unfold blen in Hx. rewrite firstn_app_exact, skipn_app_exact by lia. reflexivity.
  - rewrite blen_app, Hx, Z.add_comm, Z.div_add by lia. pose proof (blen_nonneg rest). nia.
Qed.

Lemma read_items_short k cnt b : 0 < k -> blen b < k -> read_items k cnt b = ([], b).
Proof.
  intros Hk Hb. unfold read_items. pose proof (blen_nonneg b). rewrite Z.div_small by lia.
  replace (Z.min (Z.max cnt 0) 0) with 0 by lia. reflexivity.
Qed.

Lemma read_items_cut k cnt x rest m : 0 < k -> 0 <= cnt -> blen x = cnt * k ->
  let rd := read_items k cnt (firstn m (x ++ rest)) in
  (length x <= m)%nat /\ rd = (x, firstn (m - length x) rest) \/
  (m < length x)%nat /\ blen (fst rd) < cnt * k /\ blen (snd rd) < k.
Proof.
  intros Hk Hc Hx rd. destruct (Nat.le_gt_cases (length x) m) as [Hm|Hm]; [left|right]; split; trivial.
  - unfold rd. rewrite firstn_app, firstn_all2 by assumption. apply read_items_exact; assumption.
  - destruct (read_items_spec k cnt (firstn m (x ++ rest)) Hk) as (n & Hn & Hs & Hf).
    pose proof (read_items_app k cnt (firstn m (x ++ rest))) as Happ.
    fold rd in Hs, Hf, Happ. apply (f_equal blen) in Happ. rewrite blen_app, Hf in Happ.
    pose proof (blen_nonneg (snd rd)). unfold blen in Happ at 2. rewrite firstn_length in Happ.
    unfold blen in Hx. nia.
Qed.

Definition body (recs : list (bytes * bytes)) : bytes := concat (map rec_bytes recs).

Lemma body_app a b : body (a ++ b) = body a ++ body b.
Proof. unfold body. rewrite map_app, concat_app. reflexivity. Qed.

Lemma body_len fS recs : Forall (wf_rec fS) recs ->
  blen (body recs) = Z.of_nat (length recs) * (tSize + fS).
Proof.
  induction 1 as [|r recs [Ht Hp] _ IH]; [reflexivity|].
  change (body (r :: recs)) with ((fst r ++ snd r) ++ body recs).
  rewrite !blen_app, IH, Ht, Hp. cbn [length]. lia.
Qed.

Definition file_of (hdr : bytes) (recs : list (bytes * bytes)) (tail : bytes) : bytes :=
  hdr ++ body recs ++ tail.

Lemma file_of_tail hdr recs x : file_of hdr recs [] ++ x = file_of hdr recs x.
Proof. unfold file_of. rewrite app_nil_r, app_assoc. reflexivity. Qed.

Lemma file_of_snoc hdr recs t p : file_of hdr recs [] ++ t ++ p = file_of hdr (recs ++ [(t, p)]) [].
Proof.
  unfold file_of. rewrite body_app, !app_nil_r, <- app_assoc.
  change (body [(t, p)]) with ((t ++ p) ++ []). rewrite app_nil_r. reflexivity.
Qed.

Section Layout.
  Variables (hS fS : Z) (hdr : bytes) (recs : list (bytes * bytes)).
  Hypotheses (Hh : blen hdr = hS) (Hr : Forall (wf_rec fS) recs).

  Lemma file_of_len tail :
    blen (file_of hdr recs tail) = hS + Z.of_nat (length recs) * (tSize + fS) + blen tail.
  Proof. unfold file_of. rewrite !blen_app, (body_len fS), Hh by assumption. lia. Qed.

  Lemma nFields_file_of tail : blen tail < tSize + fS ->
    nFieldsL hS (tSize + fS) (file_of hdr recs tail) = Z.of_nat (length recs).
  Proof.
    intros Ht. unfold nFieldsL. rewrite file_of_len. pose proof (blen_nonneg tail).
    replace (_ - hS) with (blen tail + Z.of_nat (length recs) * (tSize + fS)) by lia.
    rewrite Z.div_add, Z.div_small by lia. reflexivity.
  Qed.

  Lemma record_at tail i d : (i < length recs)%nat ->
    let off := hS + Z.of_nat i * (tSize + fS) in
    let f := file_of hdr recs tail in
    (slice off tSize f, slice (off + tSize) fS f) = nth i recs d.
  Proof.
    intros Hi off f. destruct (nth_split recs d Hi) as (r1 & r2 & E & L).
    destruct (nth i recs d) as [t p]. rewrite E in Hr.
    apply Forall_app in Hr as [Hr1 Hr2]. inversion Hr2 as [|? ? [Ht Hp] _]. cbn [fst snd] in Ht, Hp.
    assert (Hoff : blen (hdr ++ body r1) = off) by (rewrite blen_app, (body_len fS), L, Hh by assumption; reflexivity).
    unfold f, file_of. rewrite E, body_app. change (body ((t, p) :: r2)) with ((t ++ p) ++ body r2).
    rewrite <- !app_assoc, (app_assoc hdr). f_equal.
    - apply slice_app; assumption.
    - rewrite (app_assoc _ t). apply slice_app; [rewrite blen_app; lia|assumption].
  Qed.
End Layout.

(* What Python's negative indexing promises for a list of n records *)
Definition pyindex (n idx : Z) : option nat :=
  if (- n <=? idx) && (idx <? n) then Some (Z.to_nat (if idx <? 0 then n + idx else idx)) else None.

Lemma formatIndex_spec n idx : 0 <= n ->
  formatIndex n idx = match pyindex n idx with Some i => Some (Z.of_nat i) | None => None end.
Proof.
  intros Hn. unfold formatIndex, pyindex.
  set (i := if idx <? 0 then n + idx else idx).
  replace ((i <? n) && (0 <=? i)) with ((- n <=? idx) && (idx <? n)) by (subst i; destruct (Z.ltb_spec idx 0); lia).
  destruct (Z.leb_spec (- n) idx); [|reflexivity]. destruct (Z.ltb_spec idx n); [|reflexivity].
  cbn [andb]. f_equal. subst i. destruct (Z.ltb_spec idx 0); lia.
Qed.

Lemma formatIndex_range n idx i : formatIndex n idx = Some i -> 0 <= i < n.
Proof.
  unfold formatIndex. set (j := if idx <? 0 then n + idx else idx).
  destruct (Z.ltb_spec j n), (Z.leb_spec 0 j); try discriminate. intros [= <-]. lia.
Qed.

(* a file consisting of a header, n complete records and ANY tail shorter than one record
   (in particular every byte prefix of an interrupted append) reports exactly the n records,
   bit for bit, under Python index conventions, and nothing else. *)
Theorem reads_file_of hS fS hdr recs tail :
  blen hdr = hS -> Forall (wf_rec fS) recs -> blen tail < tSize + fS ->
  let f := file_of hdr recs tail in
  let n := Z.of_nat (length recs) in
  nFieldsL hS (tSize + fS) f = n /\
  (forall idx, readRecL hS fS f idx =
               match pyindex n idx with Some i => Some (nth i recs ([], [])) | None => None end) /\
  timesL hS fS f = map fst recs.
Proof.
  intros Hh Hr Ht f n.
  assert (Hn : nFieldsL hS (tSize + fS) f = n) by (apply nFields_file_of; assumption).
  pose proof (record_at hS fS hdr recs Hh Hr tail) as R. fold f in R.
  split; [exact Hn|]. split.
  - intros idx. unfold readRecL. rewrite Hn, formatIndex_spec by lia.
    unfold pyindex. destruct ((- n <=? idx) && (idx <? n)) eqn:E; [|reflexivity].
    f_equal. apply R. destruct (Z.ltb_spec idx 0); lia.
  - unfold timesL. rewrite Hn. unfold n. rewrite Nat2Z.id.
    apply nth_ext with (d := slice (hS + Z.of_nat 0 * (tSize + fS)) tSize f) (d' := fst (([], []) : bytes * bytes)).
    + rewrite !map_length. apply seq_length.
    + intros k Hk. rewrite map_length, seq_length in Hk.
      rewrite (map_nth (fun i => slice (hS + Z.of_nat i * (tSize + fS)) tSize f)), (map_nth fst), seq_nth by assumption.
      rewrite <- (R k ([], []) Hk). reflexivity.
Qed.

(* every crash point of an append at once *)
Corollary crash_prefix_safe hS fS hdr recs t p (k : nat) :
  0 <= fS -> blen hdr = hS -> Forall (wf_rec fS) recs -> wf_rec fS (t, p) ->
  (k < length (t ++ p))%nat ->
  let before := file_of hdr recs [] in
  let crashed := firstn (length before + k) (before ++ t ++ p) in
  nFieldsL hS (tSize + fS) crashed = Z.of_nat (length recs) /\
  (forall idx, readRecL hS fS crashed idx = readRecL hS fS before idx) /\
  timesL hS fS crashed = timesL hS fS before.
Proof.
  intros _ Hh Hr [Ht Hp] Hk before crashed. cbn [fst snd] in *. rewrite app_length in Hk.
  assert (Hk' : blen (firstn k (t ++ p)) < tSize + fS) by (unfold blen in *; rewrite firstn_length; lia).
  assert (H0 : blen [] < tSize + fS) by (unfold blen in *; cbn [length]; lia).
  unfold crashed, before. rewrite firstn_app_2, file_of_tail.
  destruct (reads_file_of hS fS hdr recs _ Hh Hr Hk') as (A1 & A2 & A3).
  destruct (reads_file_of hS fS hdr recs [] Hh Hr H0) as (_ & B2 & B3).
  split; [exact A1|]. split.
  - intros idx. rewrite A2, B2. reflexivity.
  - rewrite A3, B3. reflexivity.
Qed.

Lemma flat_map_le4_len l : blen (flat_map (le_enc 4) l) = 4 * Z.of_nat (length l).
Proof.
  induction l; [reflexivity|]. cbn [flat_map length]. rewrite blen_app, IHl.
  unfold blen at 1. rewrite le_enc_length. lia.
Qed.

Lemma sizes_roundtrip l : Forall (in_range 4) l -> map dec_int (chunk4 (flat_map (le_enc 4) l)) = l.
Proof.
  induction 1 as [|a l Ha _ IH]; [reflexivity|].
  change (chunk4 (flat_map (le_enc 4) (a :: l))) with (le_enc 4 a :: chunk4 (flat_map (le_enc 4) l)).
  cbn [map]. rewrite IH, dec_int_enc by (assumption || lia). reflexivity.
Qed.

Lemma chunk4_length n : forall g, length g = (4 * n)%nat -> length (chunk4 g) = n.
Proof.
  induction n; intros g Hg.
  - destruct g; [reflexivity|discriminate].
  - destruct g as [|a [|b [|c [|d r]]]]; simpl in Hg; try lia.
    cbn [chunk4 length]. f_equal. apply IHn. lia.
Qed.

Lemma prodZ_nonneg l : Forall (fun x => 0 <= x) l -> 0 <= prodZ l.
Proof. induction 1; simpl; [lia|]. apply Z.mul_nonneg_nonneg; assumption. Qed.

Lemma gridSizes_nonneg h : Forall (fun x => 0 <= x) (gridSizes h).
Proof. apply Forall_map, Forall_forall. intros c _. apply Z.div_pos; [apply blen_nonneg|lia]. Qed.

Lemma itemSize_nonneg dt : 0 <= itemSize dt.
Proof. unfold itemSize. destruct dt as [|p|p]; try lia. do 3 (destruct p; try lia). Qed.

Lemma fSize_nonneg h : 0 <= h_nVar h -> 0 <= fSize h.
Proof.
  intros Hn. unfold fSize, nItems. pose proof (itemSize_nonneg (h_dtype h)).
  pose proof (prodZ_nonneg _ (gridSizes_nonneg h)).
  destruct (h_kind h); nia.
Qed.

Lemma recSize_ge8 h : 0 <= h_nVar h -> 8 <= recSize h.
Proof. intros H. unfold recSize, tSize. pose proof (fSize_nonneg h H). lia. Qed.

Lemma header_bytes_len h : blen (header_bytes h) = hSize h.
Proof.
  unfold header_bytes, hBase, hInfos, hSize. destruct (h_kind h).
  - reflexivity.
  - rewrite !blen_app, flat_map_le4_len. unfold blen at 1 2 3 4. rewrite !le_enc_length.
    unfold gridSizes. rewrite map_length. lia.
Qed.

Lemma read_coords_split sizes : forall b,
  concat (fst (read_coords sizes b)) ++ snd (read_coords sizes b) = b /\
  length (fst (read_coords sizes b)) = length sizes.
Proof.
  induction sizes as [|n sizes IH]; intros b; [split; reflexivity|]. cbn [read_coords].
  pose proof (read_items_app 8 n b) as E.
  destruct (read_items 8 n b) as [c r1]. destruct (IH r1) as [I1 I2].
  destruct (read_coords sizes r1) as [cs r]. cbn [fst snd concat length] in *.
  rewrite <- app_assoc, I1, E, I2. split; reflexivity.
Qed.

Lemma read_coords_rest sizes b : blen (snd (read_coords sizes b)) <= blen b.
Proof.
  destruct (read_coords_split sizes b) as [E _]. apply (f_equal blen) in E. rewrite blen_app in E.
  pose proof (blen_nonneg (concat (fst (read_coords sizes b)))). lia.
Qed.

(* the clause of wf_header about the coordinates *)
Definition wf_coords : list bytes -> Prop :=
  Forall (fun c => blen c mod 8 = 0 /\ in_range 4 (blen c / 8)).

Lemma wf_coords_sizes cs : wf_coords cs -> Forall (in_range 4) (map (fun c => blen c / 8) cs).
Proof. intros H. apply Forall_map. revert H. apply Forall_impl. intros c Hc. apply Hc. Qed.

Lemma read_coords_exact cs rest : wf_coords cs ->
  read_coords (map (fun c => blen c / 8) cs) (concat cs ++ rest) = (cs, rest).
Proof.
  induction 1 as [|c cs [Hc _] _ IH]; [reflexivity|].
  cbn [map concat read_coords]. rewrite <- app_assoc.
  pose proof (blen_nonneg c).
  rewrite read_items_exact, IH by lia. reflexivity.
Qed.

Lemma read_coords_cut cs : wf_coords cs -> forall m, (m < length (concat cs))%nat ->
  blen (snd (read_coords (map (fun c => blen c / 8) cs) (firstn m (concat cs)))) < 8.
Proof.
  induction 1 as [|c cs [Hc _] _ IH]; intros m Hm; [cbn in Hm; lia|].
  cbn [map concat read_coords] in *. rewrite app_length in Hm. pose proof (blen_nonneg c).
  destruct (read_items_cut 8 (blen c / 8) c (concat cs) m eq_refl ltac:(lia) ltac:(lia)) as [[Hle ->]|(_ & _ & Hs)].
  - specialize (IH (m - length c)%nat ltac:(lia)).
    destruct (read_coords _ (firstn (m - length c) (concat cs))). exact IH.
  - destruct (read_items 8 _ _) as [x r1]. cbn [snd] in Hs.
    pose proof (read_coords_rest (map (fun c => blen c / 8) cs) r1) as R.
    destruct (read_coords _ r1). cbn [snd] in *. lia.
Qed.

Lemma nVar_dim_roundtrip nv dm : in_range 4 nv -> in_range 4 dm ->
  let v := le_enc 4 nv ++ le_enc 4 dm in
  (blen v =? 8) = true /\ dec_int (firstn 4 v) = nv /\ dec_int (skipn 4 v) = dm.
Proof.
  intros Hn Hd v. split; [reflexivity|]. unfold v.
  rewrite firstn_app_exact, skipn_app_exact, !dec_int_enc by (apply le_enc_length || assumption || lia). auto.
Qed.

(* fromFile behind the two id bytes: the right-hand side is what is left of the body of decode_header_rest *)
Lemma decode_after_base k dt q : dtype_known dt = true ->
  decode_header_rest (le_enc 1 (sid k) ++ le_enc 1 dt ++ q) =
  match k with
  | SScalar => let '(v, r1) := read_items 8 1 q in
               if blen v =? 8 then Ok (mkHeader SScalar dt (dec_int v) [], r1) else Err EValue
  | SRect => let '(v, r1) := read_items 4 2 q in
             if blen v =? 8 then
               let '(g, r2) := read_items 4 (dec_int (skipn 4 v)) r1 in
               let '(cs, r3) := read_coords (map dec_int (chunk4 g)) r2 in
               Ok (mkHeader SRect dt (dec_int (firstn 4 v)) cs, r3)
             else Err EValue
  end.
Proof.
  intros Hdt. unfold decode_header_rest.
  rewrite app_assoc, (read_items_exact 1 2) by (reflexivity || lia).
  change (le_enc 1 (sid k) ++ le_enc 1 dt) with [sid k mod 256; dt mod 256]. cbv beta iota zeta.
  change (dec_int [dt mod 256]) with (dec_int (le_enc 1 dt)).
  rewrite dec_int_enc, Hdt; [destruct k; reflexivity|lia|].
  apply in_range_1. unfold dtype_known in Hdt. lia.
Qed.

(* whatever fromFile accepts: the header of the new handle is as long as what was read *)
Theorem decode_consumes f h r : decode_header_rest f = Ok (h, r) -> blen f = hSize h + blen r.
Proof.
  unfold decode_header_rest.
  pose proof (read_items_app 1 2 f) as E0.
  destruct (read_items 1 2 f) as [[|s [|d [|? ?]]] r0]; try discriminate. cbn [fst snd] in E0.
  destruct (negb _); [discriminate|].
  destruct (_ =? 0).
  - pose proof (read_items_app 8 1 r0) as E1.
    destruct (read_items 8 1 r0) as [v r1]. cbn [fst snd] in E1.
    destruct (Z.eqb_spec (blen v) 8) as [Hv|]; [|discriminate]. intros [= <- <-].
    rewrite <- E0, <- E1, !blen_app, Hv. change (blen [s; d]) with 2. unfold hSize. cbn [h_kind]. lia.
  - destruct (_ =? 1); [|discriminate].
    pose proof (read_items_app 4 2 r0) as E1.
    destruct (read_items 4 2 r0) as [v r1]. cbn [fst snd] in E1.
    destruct (Z.eqb_spec (blen v) 8) as [Hv|]; [|discriminate].
    destruct (read_items_spec 4 (dec_int (skipn 4 v)) r1) as (n & Hn & _ & L2); [lia|].
    pose proof (read_items_app 4 (dec_int (skipn 4 v)) r1) as E2.
    destruct (read_items 4 _ r1) as [g r2]. cbn [fst snd] in L2, E2.
    destruct (read_coords_split (map dec_int (chunk4 g)) r2) as [E3 L3].
    destruct (read_coords _ r2) as [cs r3]. cbn [fst snd] in E3, L3. intros [= <- <-].
    unfold hSize. cbn [h_kind h_coords].
    rewrite L3, map_length, (chunk4_length (Z.to_nat n)) by (unfold blen in L2; lia).
    rewrite <- E0, <- E1, <- E2, <- E3, !blen_app, Hv, L2. change (blen [s; d]) with 2. lia.
Qed.

Theorem header_roundtrip h rest :
  wf_header h -> decode_header_rest (header_bytes h ++ rest) = Ok (h, rest).
Proof.
  destruct h as [k dt nv cs]. unfold wf_header, header_bytes, hBase, hInfos, gridSizes.
  cbn [h_kind h_dtype h_nVar h_coords]. intros (Hdt & Hnv & Hk).
  destruct k; rewrite <- !app_assoc, decode_after_base by assumption.
  - destruct Hk as [-> Hr].
    rewrite (read_items_exact 8 1), dec_int_enc by (reflexivity || assumption || lia). reflexivity.
  - destruct Hk as (Hnr & Hdim & Hcs).
    rewrite (app_assoc (le_enc 4 nv)), (read_items_exact 4 2) by (reflexivity || lia).
    destruct (nVar_dim_roundtrip nv _ Hnr Hdim) as (-> & -> & ->).
    rewrite (read_items_exact 4), sizes_roundtrip, read_coords_exact; auto using wf_coords_sizes; try lia.
    rewrite flat_map_le4_len, map_length. lia.
Qed.

Definition wf_recs (h : header) (recs : list (bytes * bytes)) : Prop := Forall (wf_rec (fSize h)) recs.

(* header, complete records, torn tail *)
Definition the_file (h : header) (recs : list (bytes * bytes)) (tail : bytes) : bytes :=
  file_of (header_bytes h) recs tail.

(* addField called for each record in turn *)
Fixpoint add_all (m : add_mode) (h : header) (f : bytes) (recs : list (bytes * bytes)) : result bytes :=
  match recs with
  | [] => Ok f
  | r :: rs => match addBytes m h f (fst r) (snd r) with
               | Ok f' => add_all m h f' rs
               | Err e => Err e
               end
  end.

Lemma empty_tail_short h : wf_header h -> blen [] < recSize h.
Proof. intros (_ & Hn & _). pose proof (recSize_ge8 h Hn). change (blen []) with 0. lia. Qed.

Lemma wf_recs_snoc h recs t p : wf_recs h recs -> wf_rec (fSize h) (t, p) -> wf_recs h (recs ++ [(t, p)]).
Proof. intros Hr Hw. apply Forall_app. split; [exact Hr|repeat constructor; apply Hw]. Qed.

Lemma the_file_nil h : the_file h [] [] = header_bytes h.
Proof. apply app_nil_r. Qed.

Lemma firstn_complete h recs tail : wf_recs h recs ->
  firstn (Z.to_nat (hSize h + Z.of_nat (length recs) * recSize h)) (the_file h recs tail) = the_file h recs [].
Proof.
  intros Hr. unfold the_file. rewrite <- file_of_tail. apply firstn_app_exact.
  pose proof (file_of_len (hSize h) (fSize h) _ recs (header_bytes_len h) Hr []) as L.
  unfold blen, recSize in *. cbn [length] in L. lia.
Qed.

(* both write positions agree on a file without torn tail; the aligned one discards a torn tail *)
Lemma add_the_file m h recs tail t p : wf_recs h recs -> blen tail < recSize h -> (m = Raw -> tail = []) ->
  addBytes m h (the_file h recs tail) t p = Ok (the_file h (recs ++ [(t, p)]) []).
Proof.
  intros Hr Ht Hm. unfold the_file at 2. rewrite <- file_of_snoc. destruct m; cbn [addBytes].
  - rewrite (Hm eq_refl). reflexivity.
  - assert (N : nFields h (the_file h recs tail) = Z.of_nat (length recs))
      by exact (nFields_file_of (hSize h) (fSize h) _ recs (header_bytes_len h) Hr tail Ht).
    rewrite N, firstn_complete by assumption.
    pose proof (blen_nonneg (header_bytes h)) as H0. rewrite header_bytes_len in H0.
    pose proof (blen_nonneg tail). destruct (Z.ltb_spec (hSize h + Z.of_nat (length recs) * recSize h) 0); [nia|reflexivity].
Qed.

Lemma add_all_ok m h recs0 recs : wf_header h -> wf_recs h recs0 -> wf_recs h recs ->
  add_all m h (the_file h recs0 []) recs = Ok (the_file h (recs0 ++ recs) []).
Proof.
  intros Hh H0 H. revert recs0 H0. induction H as [|[t p] rs Hr Hrs IH]; intros recs0 H0.
  - rewrite app_nil_r. reflexivity.
  - cbn [add_all fst snd]. rewrite add_the_file, IH, <- app_assoc; auto using empty_tail_short, wf_recs_snoc.
Qed.

Definition expected_read (recs : list (bytes * bytes)) (idx : Z) : result (bytes * bytes) :=
  match pyindex (Z.of_nat (length recs)) idx with
  | Some i => Ok (nth i recs ([], []))
  | None => Err EAssert
  end.

Lemma expected_read_last recs r : expected_read (recs ++ [r]) (-1) = Ok r.
Proof.
  unfold expected_read, pyindex. rewrite app_length. cbn [length].
  replace (_ && _) with true by lia. change (-1 <? 0) with true. cbv iota.
  replace (Z.to_nat _) with (length recs) by lia. rewrite nth_middle. reflexivity.
Qed.

(* reads of a handle with header h, re-opened or not, on header + records + torn tail *)
Theorem reads_the_file h recs tail :
  wf_header h -> wf_recs h recs -> blen tail < recSize h ->
  let f := the_file h recs tail in
  decode_header f = Ok h /\
  nFields h f = Z.of_nat (length recs) /\
  (is0d h = false -> forall idx, readField h f idx = expected_read recs idx) /\
  (is0d h = false -> times h f = Ok (map fst recs)).
Proof.
  intros Hh Hr Ht. cbv zeta. unfold the_file.
  destruct (reads_file_of (hSize h) (fSize h) _ recs tail (header_bytes_len h) Hr Ht) as (A1 & A2 & A3).
  split; [|split; [exact A1|split]].
  - unfold decode_header, file_of. rewrite header_roundtrip by assumption. reflexivity.
  - intros H0 idx. unfold readField, expected_read. rewrite A2, H0.
    destruct (pyindex _ idx); reflexivity.
  - intros H0. unfold times. rewrite H0, A3. reflexivity.
Qed.

(* round trip: after initialize and ANY sequence of addField calls (either write mode), a handle
   re-opened from the file has the same header, and every index returns the record written there *)
Theorem records_roundtrip m h recs :
  wf_header h -> wf_recs h recs ->
  exists f, add_all m h (header_bytes h) recs = Ok f /\
    decode_header f = Ok h /\
    nFields h f = Z.of_nat (length recs) /\
    (is0d h = false -> forall idx, readField h f idx = expected_read recs idx) /\
    (is0d h = false -> times h f = Ok (map fst recs)).
Proof.
  intros Hh Hr. exists (the_file h recs []). split.
  - rewrite <- the_file_nil. apply add_all_ok; (assumption || constructor).
  - apply reads_the_file; auto using empty_tail_short.
Qed.

(* the clause "fields appended after re-opening are again read back exactly" holds for the aligned
   write position (add_the_file) and is REFUTED for the pinned code (append at the end of the file):
   Scalar float64 file with nVar = 2, one complete record, an append cut after 19 of 24 bytes, re-open, append. *)
Definition cex_h : header := mkHeader SScalar 0 2 [].
Definition cex_r0 : bytes * bytes := (repeat 0 8, repeat 1 16).
Definition cex_r1 : bytes * bytes := (repeat 2 8, repeat 3 16).
Definition cex_r2 : bytes * bytes := (repeat 4 8, repeat 5 16).

Theorem append_after_crash_refuted :
  exists h recs t p k t' p',
    wf_header h /\ wf_recs h recs /\ wf_rec (fSize h) (t, p) /\ wf_rec (fSize h) (t', p') /\
    (k < length (t ++ p))%nat /\ is0d h = false /\
    let before := the_file h recs [] in
    let crashed := firstn (length before + k) (before ++ t ++ p) in
    exists f', addBytes Raw h crashed t' p' = Ok f' /\
      decode_header f' = Ok h /\
      nFields h f' = Z.of_nat (length recs) + 1 /\
      readField h f' (-1) <> Ok (t', p') /\
      (forall idx, readField h f' idx <> Ok (t', p')).
Proof.
  exists cex_h, [cex_r0], (fst cex_r1), (snd cex_r1), 19%nat, (fst cex_r2), (snd cex_r2).
  split. { repeat split; (reflexivity || discriminate). }
  split. { repeat constructor. }
  split. { split; reflexivity. }
  split. { split; reflexivity. }
  split. { cbn. lia. }
  split. { reflexivity. }
  cbv zeta. eexists. split; [reflexivity|].
  split; [vm_compute; reflexivity|]. split; [vm_compute; reflexivity|].
  split; [vm_compute; discriminate|].
  (* the file holds two record slots; neither is the appended record *)
  intros idx. unfold readField, readRecL.
  match goal with |- context [nFieldsL ?a ?b ?c] => let v := eval vm_compute in (nFieldsL a b c) in change (nFieldsL a b c) with v end.
  destruct (formatIndex 2 idx) as [i|] eqn:E; [|discriminate].
  apply formatIndex_range in E. assert (Hi : i = 0 \/ i = 1) by lia.
  destruct Hi as [-> | ->]; vm_compute; discriminate.
Qed.

(* overwrite protection: initialize() with ALLOW_OVERWRITE = False never changes an existing file *)
Theorem overwrite_protected m s k f :
  file s = Some f ->
  let '(s', r, _) := step m s (OInit k false) in
  file s' = Some f /\ handles s' = handles s /\ (r = RErr EExists \/ r = RErr EAssert).
Proof.
  intros Hf. unfold step. destruct (inited (nth k (handles s) dummy_handle)).
  - auto.
  - rewrite Hf. auto.
Qed.

Lemma no_records hS fS f : nFieldsL hS (tSize + fS) f = 0 ->
  timesL hS fS f = [] /\ forall idx, readRecL hS fS f idx = None.
Proof.
  intros H. unfold timesL, readRecL. rewrite H. split; [reflexivity|].
  intros idx. destruct (formatIndex 0 idx) as [i|] eqn:E; [|reflexivity].
  apply formatIndex_range in E. lia.
Qed.

(* A handle with header h' on file p reports no records *)
Definition reports_nothing (h' : header) (p : bytes) : Prop :=
  nFields h' p = 0 /\ timesL (hSize h') (fSize h') p = [] /\
  forall idx, readRecL (hSize h') (fSize h') p idx = None.

Lemma reports_nothing_of h' p r : 0 <= h_nVar h' -> blen p = hSize h' + blen r -> blen r < 8 ->
  reports_nothing h' p.
Proof.
  intros Hn Hp Hr. pose proof (recSize_ge8 h' Hn). pose proof (blen_nonneg r).
  assert (N : nFields h' p = 0).
  { unfold nFields, nFieldsL. rewrite Hp, Z.add_simpl_l. apply Z.div_small. lia. }
  split; [exact N|]. apply no_records. exact N.
Qed.

(* a crash at ANY byte of header creation: fromFile either raises, or yields a handle that
   reports no record at all (np.fromfile reads leniently, so a cut Rectilinear header may still
   be opened — with fewer/shorter axes — but never with records) *)
Theorem header_crash_safe h (k : nat) :
  wf_header h -> (k < length (header_bytes h))%nat ->
  let p := firstn k (header_bytes h) in
  (exists e, decode_header p = Err e) \/
  (exists h', decode_header p = Ok h' /\ reports_nothing h' p).
Proof.
  intros Hh Hlt p. unfold decode_header.
  destruct (decode_header_rest p) as [[h' r]|e] eqn:D; [right|left; eauto].
  exists h'. split; [reflexivity|].
  (* the new handle is as long as what was read (decode_consumes); it remains to follow the reads
     up to the cut: nVar was read whole and the last read left less than one item *)
  enough (0 <= h_nVar h' /\ blen r < 8) as [Hn Hr] by exact (reports_nothing_of h' p r Hn (decode_consumes p h' r D) Hr).
  revert D. subst p. destruct h as [kind dt nv cs]. destruct Hh as (Hdt & Hnv & Hk).
  unfold header_bytes, hBase in *. cbn [h_kind h_dtype h_nVar h_coords] in *. rewrite <- app_assoc.
  destruct k as [|[|k']]; [discriminate..|].
  change (firstn (S (S k')) (le_enc 1 ?s ++ le_enc 1 dt ++ ?x)) with (le_enc 1 s ++ le_enc 1 dt ++ firstn k' x).
  rewrite decode_after_base by assumption.
  unfold hInfos, gridSizes in *. cbn [h_kind h_nVar h_coords] in *.
  destruct kind; rewrite !app_length, !le_enc_length in Hlt.
  - (* Scalar: the int64 is cut *)
    rewrite read_items_short; [discriminate|lia|unfold blen; rewrite firstn_length; lia].
  - destruct Hk as (Hnr & Hdim & Hcs). rewrite (app_assoc (le_enc 4 nv)).
    set (v := le_enc 4 nv ++ le_enc 4 (Z.of_nat (length cs))).
    set (G := flat_map (le_enc 4) (map (fun c => blen c / 8) cs)) in *.
    destruct (read_items_cut 4 2 v (G ++ concat cs) k' eq_refl ltac:(lia) eq_refl) as [[Hle ->]|(_ & Hf & _)].
    + destruct (nVar_dim_roundtrip nv _ Hnr Hdim) as (V1 & V2 & V3). fold v in V1, V2, V3. rewrite V1, V2, V3.
      assert (HG : blen G = Z.of_nat (length cs) * 4) by (unfold G; rewrite flat_map_le4_len, map_length; lia).
      destruct (read_items_cut 4 (Z.of_nat (length cs)) G (concat cs) (k' - length v) eq_refl ltac:(lia) HG)
        as [[Hle2 ->]|(_ & _ & Hs)].
      * (* the grid sizes were read; the coordinates are cut *)
        unfold G at 1. rewrite sizes_roundtrip by apply wf_coords_sizes, Hcs.
        pose proof (read_coords_cut cs Hcs (k' - length v - length G)) as C.
        destruct (read_coords _ _) as [cs' r3]. intros [= <- <-]. split; [exact Hnv|apply C].
        change (length v) with 8%nat in *. lia.
      * (* the grid sizes are cut: less than one int32 is left for the coordinates *)
        destruct (read_items 4 _ _) as [g r2]. cbn [snd] in Hs.
        pose proof (read_coords_rest (map dec_int (chunk4 g)) r2) as R.
        destruct (read_coords _ r2) as [cs' r3]. cbn [snd] in R. intros [= <- <-]. split; [exact Hnv|lia].
    + (* nVar/dim cut *)
      destruct (read_items 4 2 _) as [x r1]. cbn [fst] in Hf.
      destruct (Z.eqb_spec (blen x) 8); [lia|discriminate].
Qed.

(* Operations on a file created by initialize() with header h, through any handle carrying h
   (the creating one or one obtained later from fromFile): *)
Inductive hop :=
| HAdd (t p : bytes)      (* addField *)
| HTorn (tail : bytes)    (* crash of an append: the complete records survive, followed by fewer than
                             recSize ARBITRARY bytes (covers every byte prefix of the record being written,
                             also when it was being written over an older torn tail) *)
| HReopen                 (* FieldsIO.fromFile *)
| HRead (idx : Z)
| HNFields
| HTimes.

Inductive hobs :=
| OUnit | OHdr (r : result header) | ORec (r : result (bytes * bytes)) | ONum (n : Z)
| OTimesR (r : result (list bytes)).

Definition wf_recb (fS : Z) (t p : bytes) : bool := (blen t =? tSize) && (blen p =? fS).

Definition conc_step (m : add_mode) (h : header) (f : bytes) (o : hop) : bytes * hobs :=
  match o with
  | HAdd t p => if wf_recb (fSize h) t p
                then match addBytes m h f t p with Ok f' => (f', OUnit) | Err _ => (f, OUnit) end
                else (f, OUnit)                       (* the size/dtype assertions reject the field *)
  | HTorn tail => if blen tail <? recSize h
                  then (firstn (Z.to_nat (hSize h + nFields h f * recSize h)) f ++ tail, OUnit)
                  else (f, OUnit)
  | HReopen => (f, OHdr (decode_header f))
  | HRead idx => (f, ORec (readField h f idx))
  | HNFields => (f, ONum (nFields h f))
  | HTimes => (f, OTimesR (times h f))
  end.

(* the specification: a list of records *)
Definition spec_step (h : header) (recs : list (bytes * bytes)) (o : hop) : list (bytes * bytes) * hobs :=
  match o with
  | HAdd t p => if wf_recb (fSize h) t p then (recs ++ [(t, p)], OUnit) else (recs, OUnit)
  | HTorn _ => (recs, OUnit)
  | HReopen => (recs, OHdr (Ok h))
  | HRead idx => (recs, ORec (expected_read recs idx))
  | HNFields => (recs, ONum (Z.of_nat (length recs)))
  | HTimes => (recs, OTimesR (Ok (map fst recs)))
  end.

Fixpoint conc_run (m : add_mode) (h : header) (f : bytes) (ops : list hop) : list hobs :=
  match ops with
  | [] => []
  | o :: r => let '(f', ob) := conc_step m h f o in ob :: conc_run m h f' r
  end.

Fixpoint spec_run (h : header) (recs : list (bytes * bytes)) (ops : list hop) : list hobs :=
  match ops with
  | [] => []
  | o :: r => let '(recs', ob) := spec_step h recs o in ob :: spec_run h recs' r
  end.

Definition no_crash (o : hop) : Prop := match o with HTorn _ => False | _ => True end.

(* invariant: the file is the header, the records of the specification and a tail shorter than a
   record, which is empty under the Raw write *)
Lemma any_history_gen m h ops : wf_header h -> is0d h = false ->
  (m = Raw -> Forall no_crash ops) ->
  forall recs tail, wf_recs h recs -> blen tail < recSize h -> (m = Raw -> tail = []) ->
  conc_run m h (the_file h recs tail) ops = spec_run h recs ops.
Proof.
  intros Hh H0. induction ops as [|o ops IH]; intros Hm recs tail Hr Ht Hmt; [reflexivity|].
  specialize (IH (fun E => Forall_inv_tail (Hm E))).
  destruct (reads_the_file h recs tail Hh Hr Ht) as (R1 & R2 & R3 & R4).
  cbn [conc_run spec_run].
  destruct o as [t p|tail'| |idx| |]; cbn [conc_step spec_step]; rewrite ?R1, ?R2, ?(R3 H0), ?(R4 H0);
    try (f_equal; apply IH; assumption).
  - destruct (wf_recb (fSize h) t p) eqn:W; [|f_equal; apply IH; assumption].
    rewrite add_the_file by assumption. f_equal. apply IH; auto using empty_tail_short.
    apply wf_recs_snoc; [assumption|]. unfold wf_recb in W. split; cbn [fst snd]; lia.
  - destruct m; [destruct (Forall_inv (Hm eq_refl))|].
    destruct (Z.ltb_spec (blen tail') (recSize h)); [|f_equal; apply IH; assumption].
    rewrite firstn_complete by assumption. unfold the_file at 1. rewrite file_of_tail.
    f_equal. apply IH; (assumption || discriminate).
Qed.

(* non-vacuity of the hypotheses: a 2-D Rectilinear float32 header with 3 x 2 points *)
Example wf_header_example :
  let h := mkHeader SRect 4 2 [repeat 7 24; repeat 9 16] in
  wf_header h /\ is0d h = false /\ fSize h = 48 /\ hSize h = 58 /\
  conc_run Aligned h (header_bytes h)
    [HAdd (repeat 1 8) (repeat 2 48); HTorn (repeat 3 55); HAdd (repeat 4 8) (repeat 5 48); HRead (-1); HNFields]
  = [OUnit; OUnit; OUnit; ORec (Ok (repeat 4 8, repeat 5 48)); ONum 2].
Proof.
  cbv zeta. split.
  { repeat constructor; discriminate. }
  repeat split; vm_compute; reflexivity.
Qed.
