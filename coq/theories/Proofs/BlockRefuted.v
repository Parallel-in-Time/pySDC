(* The known finding "tolerance-level chain inexactness with a quadrature end point" as a statement about the model:
   in controller_nonMPI.it_check every step SENDS its end value and THEN RECEIVES its new initial value.  With a quadrature end
   point (u0 + dt sum w f) the value a step has sent therefore differs from the end value of the state it holds afterwards, and its
   successor starts from the former.  The witness over Z (one level, one Gauss-type node, three steps) is defined here; the
   statement about it is C01_quadrature_chain_inexact_refuted in Props/C01.v. *)
From Coq Require Import List Arith Bool ZArith.
From PySDC Require Import Model.Sweep Model.Transfer Model.MultiLevel Model.Block.
Import ListNotations.
Open Scope Z_scope.

Definition rz_level : @level Z unit :=
  {| lM := 1; ldt := 1; lnodes := fun _ => 0; lQ := fun _ _ => 1; lQI := fun _ _ => 1; lQE := fun _ _ => 0;
     lfeval := fun _ _ _ _ => 0; lsolve := fun _ rhs _ _ _ => rhs; lpre := 1%nat; lpost := 0%nat |}.
Definition rz_xfer : @xfer Z unit :=
  {| xRs := fun v => v; xPs := fun v => v; xRcoll := fun _ _ => 1; xPcoll := fun _ _ => 1; xfinter := false |}.
Definition rz_end : @endp Z := {| erin := false; edcu := false; ew := fun _ => 1 |}.       (* right end is not a node: quadrature *)
Definition rz_state (u0 f1 : Z) : @lvst Z unit :=
  {| su := fun m _ => if Nat.eqb m 0 then u0 else 0; sf := fun m _ _ => if Nat.eqb m 1 then f1 else 0; stau := fun _ => None;
     suold := fun _ _ => 0; sfold := fun _ _ _ => 0; suend := fun _ => 0; ssent := false; svalid := true |}.
Definition rz_B0 : @bstate Z unit := fun p _ => match p with 0%nat => rz_state 0 1 | 1%nat => rz_state 5 1 | _ => rz_state 7 1 end.
Definition rz_run := run_ops 0 Z.add Z.mul Z.sub Z.eqb false (fun _ => rz_level) (fun _ => rz_xfer) (fun _ => 0) (fun _ => rz_end).
Definition rz_uend (s : @lvst Z unit) : Z := end_value 0 Z.add Z.mul false (fun _ => rz_level) (fun _ => rz_end) 0%nat s tt.

(* the two values the witness produces, under names: Props/C01.v states them without opening Z_scope *)
Definition rz_six : Z := 6.
Definition rz_two : Z := 2.

(* in copy mode (end value = last node) the same communication leaves the chain exact *)
Definition rz_end_copy : @endp Z := {| erin := true; edcu := false; ew := fun _ => 1 |}.
Definition rz_run_copy := run_ops 0 Z.add Z.mul Z.sub Z.eqb false (fun _ => rz_level) (fun _ => rz_xfer) (fun _ => 0) (fun _ => rz_end_copy).
Theorem copy_chain_exact_instance :
  let B := rz_run_copy (it_check_ops 3) rz_B0 in
  su (B 2%nat 0%nat) 0%nat tt = end_value 0 Z.add Z.mul false (fun _ => rz_level) (fun _ => rz_end_copy) 0%nat (B 1%nat 0%nat) tt.
Proof. vm_compute. reflexivity. Qed.
