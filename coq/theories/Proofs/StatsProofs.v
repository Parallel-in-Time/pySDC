(* C14 — lemmas about the statistics model (Model/Stats.v): keys and keyword matching, filter_stats with both phases of
   the `recomputed` pruning, the validators, sort_stats, dictionaries and hooks, DefaultHooks.post_step, the reproduced
   restart history.  Props/C14.v states the property theorems and derives them from these. *)
From Coq Require Import ZArith QArith List Bool String Lia Permutation Sorted OrderedTypeEx.
From PySDC Require Import Base.Dyadic Model.Stats.
Import ListNotations.
Open Scope Z_scope.

Lemma filter_filter {A} (P Q : A -> bool) l : filter Q (filter P l) = filter (fun a => P a && Q a) l.
Proof.
  induction l as [|a l IH]; simpl; auto.
  destruct (P a); simpl; [destruct (Q a)|]; rewrite IH; reflexivity.
Qed.

Lemma filter_true {A} (l : list A) : filter (fun _ => true) l = l.
Proof. induction l; simpl; congruence. Qed.

(* a loop whose body acts as a filter is the filter by the conjunction of the bodies' predicates *)
Lemma fold_filter {A X} (F : X -> list A -> list A) (Q : X -> A -> bool) :
  (forall x l, F x l = filter (Q x) l) ->
  forall xs l, fold_left (fun res x => F x res) xs l = filter (fun a => forallb (fun x => Q x a) xs) l.
Proof.
  intros HF xs. induction xs as [|x xs IH]; intro l; simpl.
  - symmetry. apply filter_true.
  - rewrite IH, HF, filter_filter. reflexivity.
Qed.

Lemma existsb_filter {A} (p f : A -> bool) l : existsb f (filter p l) = existsb (fun x => p x && f x) l.
Proof. induction l as [|a l IH]; simpl; [reflexivity|]. destruct (p a); simpl; rewrite IH; reflexivity. Qed.

Lemma existsb_ext {A} (f g : A -> bool) l : (forall x, f x = g x) -> existsb f l = existsb g l.
Proof. intro H. induction l as [|a l IH]; simpl; [reflexivity|]. rewrite H, IH. reflexivity. Qed.

Lemma existsb_map {A B} (f : B -> bool) (g : A -> B) l : existsb f (map g l) = existsb (fun x => f (g x)) l.
Proof. induction l as [|a l IH]; simpl; [reflexivity|]. rewrite IH. reflexivity. Qed.

Lemma fold_left_inv {A B} (P : A -> Prop) (f : A -> B -> A) l :
  (forall a b, P a -> P (f a b)) -> forall a, P a -> P (fold_left f l a).
Proof. intro H. induction l; simpl; auto. Qed.

(* field-wise reading of fmatch *)
Definition fmatchP {A} (want have : option A) : Prop := forall w, want = Some w -> have = Some w.

Lemma fmatchP_some {A} (w : A) have : fmatchP (Some w) have <-> have = Some w.
Proof. unfold fmatchP. split; [auto | intros -> w' E; exact E]. Qed.

Section Eqb.
Context {A : Type} {eqb : A -> A -> bool} (eqb_eq : forall x y, eqb x y = true <-> x = y).

Lemma oeqb_spec a b : oeqb eqb a b = true <-> a = b.
Proof. destruct a, b; simpl; rewrite ?eqb_eq; split; congruence. Qed.

Lemma fmatch_some w have : fmatch eqb (Some w) have = true <-> have = Some w.
Proof. exact (oeqb_spec have (Some w)). Qed.   (* the two comparisons are convertible *)

Lemma fmatch_spec want have : fmatch eqb want have = true <-> fmatchP want have.
Proof.
  destruct want as [w|].
  - rewrite fmatchP_some. apply fmatch_some.
  - split; [intros _ w; discriminate | reflexivity].
Qed.
End Eqb.

Lemma andb_iff a b (A B : Prop) : (a = true <-> A) -> (b = true <-> B) -> (a && b = true <-> A /\ B).
Proof. rewrite andb_true_iff. tauto. Qed.

Lemma entry_eqb_spec a b : entry_eqb a b = true <-> a = b.
Proof.
  eapply iff_trans.
  - unfold entry_eqb.   (* `if c then b else false` is `c && b` *)
    repeat apply andb_iff; (apply (oeqb_spec Z.eqb_eq) || apply (oeqb_spec String.eqb_eq)).
  - destruct a, b; simpl. split.
    + intros (-> & -> & -> & -> & -> & -> & -> & ->). reflexivity.
    + intros [= -> -> -> -> -> -> -> ->]. repeat split.
Qed.

Lemma entry_eqb_refl a : entry_eqb a a = true.
Proof. apply entry_eqb_spec. reflexivity. Qed.

Lemma entry_eqb_neq a b : entry_eqb a b = false <-> a <> b.
Proof. rewrite <- entry_eqb_spec. symmetry. apply not_true_iff_false. Qed.

(* an entry matches keyword arguments iff no unknown keyword was given a value and every given field value
   is the entry's value of that field *)
Definition matchesP (kw : kwargs) (k : entry) : Prop :=
  kw_unknown kw = false /\
  fmatchP (e_process (kw_e kw)) (e_process k) /\ fmatchP (e_process_sweeper (kw_e kw)) (e_process_sweeper k) /\
  fmatchP (e_time (kw_e kw)) (e_time k) /\ fmatchP (e_level (kw_e kw)) (e_level k) /\
  fmatchP (e_iter (kw_e kw)) (e_iter k) /\ fmatchP (e_sweep (kw_e kw)) (e_sweep k) /\
  fmatchP (e_type (kw_e kw)) (e_type k) /\ fmatchP (e_num_restarts (kw_e kw)) (e_num_restarts k).

Lemma matches_spec kw k : matches kw k = true <-> matchesP kw k.
Proof.
  eapply iff_trans.
  - unfold matches.
    repeat apply andb_iff; (apply negb_true_iff || apply (fmatch_spec Z.eqb_eq) || apply (fmatch_spec String.eqb_eq)).
  - unfold matchesP. tauto.
Qed.

Theorem filter_exact {V} (kw : kwargs) (d : dict V) k v :
  In (k, v) (filter_plain kw d) <-> In (k, v) d /\ matchesP kw k.
Proof. unfold filter_plain. rewrite filter_In, matches_spec. reflexivity. Qed.

Lemma filter_plain_in {V} (kw : kwargs) (d : dict V) kv :
  In kv (filter_plain kw d) <-> In kv d /\ matchesP kw (fst kv).
Proof. destruct kv. apply filter_exact. Qed.

Lemma keys_filter_plain {V} kw (d : dict V) k :
  In k (keys (filter_plain kw d)) <-> In k (keys d) /\ matches kw k = true.
Proof.
  unfold keys, filter_plain. rewrite !in_map_iff. split.
  - intros ([k' v] & <- & H). apply filter_In in H. split; [exists (k', v)|]; tauto.
  - intros (([k' v] & <- & H) & M). exists (k', v). rewrite filter_In. auto.
Qed.

(* what matches does on the keyword sets that filter_stats itself builds *)
Lemma matches_time t k : matches (kw_time t) k = fmatch Z.eqb t (e_time k).
Proof. unfold matches, kw_time. simpl. rewrite !andb_true_r. reflexivity. Qed.

Lemma matches_type ty k : matches (kw_type ty) k = fmatch String.eqb ty (e_type k).
Proof. unfold matches, kw_type. simpl. rewrite !andb_true_r. reflexivity. Qed.

Lemma matches_type_nr ty i k :
  matches (kw_type_nr ty i) k = fmatch String.eqb ty (e_type k) && fmatch Z.eqb (Some i) (e_num_restarts k).
Proof. reflexivity. Qed.

Lemma matches_tt ty t k : matches (kw_tt ty t) k = fmatch Z.eqb t (e_time k) && fmatch String.eqb ty (e_type k).
Proof. unfold matches, kw_tt. simpl. rewrite !andb_true_r. reflexivity. Qed.

Lemma in_now {V} (d : dict V) tau kv :
  In kv (filter_plain (kw_time (Some tau)) d) <-> In kv d /\ e_time (fst kv) = Some tau.
Proof. unfold filter_plain. rewrite filter_In, matches_time, (fmatch_some Z.eqb_eq). reflexivity. Qed.

Lemma in_recomputed {V} (stats : dict V) m :
  In m (filter_plain kw_recomputed stats) <-> In m stats /\ e_type (fst m) = Some recomputed_tag.
Proof. unfold filter_plain, kw_recomputed. rewrite filter_In, matches_type, (fmatch_some String.eqb_eq). reflexivity. Qed.

Lemma memb_spec k ks : memb k ks = true <-> In k ks.
Proof.
  unfold memb. rewrite existsb_exists. split.
  - intros (x & Hx & E). apply entry_eqb_spec in E. subst. exact Hx.
  - intro H. exists k. split; [exact H|apply entry_eqb_refl].
Qed.

Lemma pop_all_filter {V} ks (d : dict V) : pop_all ks d = filter (fun kv => negb (memb (fst kv) ks)) d.
Proof.
  unfold pop_all, dict. rewrite (fold_filter dict_pop (fun k kv => negb (entry_eqb (fst kv) k))) by reflexivity.
  apply filter_ext. intro kv. unfold memb.
  induction ks as [|k ks IH]; simpl; [reflexivity|]. rewrite IH, negb_orb. reflexivity.
Qed.

Lemma pop_matching {V} kw (d : dict V) :
  pop_all (keys (filter_plain kw d)) d = filter (fun kv => negb (matches kw (fst kv))) d.
Proof.
  rewrite pop_all_filter. apply filter_ext_in. intros kv H. f_equal.
  apply eq_true_iff_eq. rewrite memb_spec, keys_filter_plain.
  split; [tauto|]. intro M. split; [apply in_map, H|exact M].
Qed.

Lemma prune2_filter {V} steps (d : dict V) :
  prune2 steps d = filter (fun kv => forallb (fun step => negb (matches (kw_time (e_time step)) (fst kv))) steps) d.
Proof. unfold prune2. apply fold_filter. intros step l. apply pop_matching. Qed.

(* prune_time as one filter whose predicate is computed from the snapshot `now` *)
Definition keep_time {V} (now : dict V) (kv : entry * V) : bool :=
  forallb (fun tn : option string * Z =>
     forallb (fun i => negb (memb (fst kv) (keys (filter_plain (kw_type_nr (fst tn) i) now)))) (zrange (snd tn)))
          (restarts_of now).

Lemma prune_time_filter {V} t (d : dict V) :
  prune_time t d = filter (keep_time (filter_plain (kw_time t) d)) d.
Proof.
  unfold prune_time, keep_time. apply fold_filter. intros tn l.
  apply fold_filter. intros i l'. apply pop_all_filter.
Qed.

Lemma zrange_spec n i : In i (zrange n) <-> 0 <= i < n.
Proof.
  unfold zrange. rewrite in_map_iff. split.
  - intros (x & E & H). apply in_seq in H. lia.
  - intro H. exists (Z.to_nat i). split; [lia|]. apply in_seq. lia.
Qed.

(* regular dictionaries: what the hooks produce (time, type given; counter a non-negative int) *)
Definition regular_entry (k : entry) : Prop :=
  (exists t, e_time k = Some t) /\ (exists s, e_type k = Some s) /\ (exists r, e_num_restarts k = Some r /\ 0 <= r).
Definition regular {V} (d : dict V) : Prop := forall kv, In kv d -> regular_entry (fst kv).

Lemma regular_filter {V} (P : entry * V -> bool) (d : dict V) : regular d -> regular (filter P d).
Proof. intros H kv Hin. apply filter_In in Hin. apply H. tauto. Qed.

Lemma regular_nr_nonneg k : regular_entry k -> 0 <= nr k.
Proof. intros (_ & _ & r & E & H). unfold nr. rewrite E. exact H. Qed.

(* the `restarts` dictionary holds per type the largest count (at least 0): a property of (type, count) that
   distributes over max and fails at count 0 holds of one of its entries iff it holds of a record (keep_time_spec
   instantiates it with "matches the type of the record and exceeds its count") *)
Section Restarts.
Variable Q : option string * Z -> Prop.
Hypothesis Qmax : forall ty n m, Q (ty, Z.max n m) <-> Q (ty, n) \/ Q (ty, m).
Hypothesis Q0 : forall ty, ~ Q (ty, 0).

Lemma restarts_upd_Exists ty r rs : Exists Q (restarts_upd ty r rs) <-> Exists Q rs \/ Q (ty, r).
Proof.
  induction rs as [|[ty0 n0] rs IH]; cbn [restarts_upd].
  - rewrite Exists_cons, Exists_nil, Qmax. specialize (Q0 ty). tauto.
  - destruct (oeqb String.eqb ty0 ty) eqn:E; rewrite !Exists_cons.
    + apply (oeqb_spec String.eqb_eq) in E. subst ty0. rewrite Qmax. clear. tauto.
    + rewrite IH. clear. tauto.
Qed.

Lemma restarts_of_Exists {V} (now : dict V) :
  Exists Q (restarts_of now) <-> Exists (fun kv => Q (e_type (fst kv), nr (fst kv))) now.
Proof.
  unfold restarts_of.
  enough (H : forall rs, Exists Q (fold_left (fun rs kv => restarts_upd (e_type (fst kv)) (nr (fst kv)) rs) now rs) <->
                         Exists Q rs \/ Exists (fun kv => Q (e_type (fst kv), nr (fst kv))) now)
    by (rewrite H, Exists_nil; tauto).
  induction now as [|a l IH]; intro rs; simpl.
  - rewrite Exists_nil. tauto.
  - rewrite IH, restarts_upd_Exists, Exists_cons. tauto.
Qed.
End Restarts.

Lemma keep_time_spec {V} (now : dict V) kv :
  regular now -> regular_entry (fst kv) ->
  (keep_time now kv = true <->
   ~ (In (fst kv) (keys now) /\ exists kv', In kv' now /\ e_type (fst kv') = e_type (fst kv) /\ nr (fst kv) < nr (fst kv'))).
Proof.
  intros Hreg (_ & _ & r & Hr & Hr0). unfold nr at 1. rewrite Hr.
  set (Q := fun tn : option string * Z => fmatchP (fst tn) (e_type (fst kv)) /\ r < snd tn).
  (* the pops for the entry tn of `restarts` hit the record iff fst tn matches its type and its count is below snd tn *)
  transitivity (~ (In (fst kv) (keys now) /\ Exists Q (restarts_of now))).
  { unfold keep_time, Q. rewrite forallb_forall, Exists_exists. split.
    - intros H (Hk & tn & Hin & Hty & Hn). specialize (H tn Hin).
      apply (proj1 (forallb_forall _ _)) with (x := r) in H; [|apply zrange_spec; lia].
      apply negb_true_iff, not_true_iff_false in H. apply H, memb_spec, keys_filter_plain. split; [exact Hk|].
      rewrite matches_type_nr. apply andb_true_intro.
      split; [apply (fmatch_spec String.eqb_eq), Hty|apply (fmatch_some Z.eqb_eq), Hr].
    - intros H tn Hin. apply forallb_forall. intros i Hi. apply zrange_spec in Hi.
      apply negb_true_iff, not_true_iff_false. intro Hm. apply memb_spec, keys_filter_plain in Hm. destruct Hm as [Hk Hm].
      rewrite matches_type_nr in Hm. apply andb_prop in Hm as [Hty Hi'].
      apply (fmatch_spec String.eqb_eq) in Hty. apply (fmatch_some Z.eqb_eq) in Hi'. rewrite Hr in Hi'. injection Hi' as ->.
      apply H. split; [exact Hk|]. exists tn. repeat split; tauto. }
  apply not_iff_compat, and_iff_compat_l. rewrite restarts_of_Exists, Exists_exists.
  - split; intros (kv' & Hin & H1 & H2); exists kv'; (split; [exact Hin|]); (split; [|exact H2]).
    + destruct (Hreg _ Hin) as (_ & (s & Hs) & _). rewrite Hs in *. symmetry. apply fmatchP_some, H1.
    + rewrite H1. intros w E. exact E.
  - intros ty n m. unfold Q. cbn [fst snd]. rewrite Z.max_lt_iff. tauto.
  - intros ty [_ H]. cbn [snd] in H. lia.
Qed.

Definition dominated {V} (d : dict V) (k : entry) : Prop :=
  exists kv', In kv' d /\ e_time (fst kv') = e_time k /\ e_type (fst kv') = e_type k /\ nr k < nr (fst kv').

Lemma prune_time_spec {V} (d : dict V) tau kv :
  regular d ->
  (In kv (prune_time (Some tau) d) <-> In kv d /\ ~ (e_time (fst kv) = Some tau /\ dominated d (fst kv))).
Proof.
  intro Hreg. rewrite prune_time_filter, filter_In.
  enough (H : In kv d -> (keep_time (filter_plain (kw_time (Some tau)) d) kv = true <->
                      ~ (e_time (fst kv) = Some tau /\ dominated d (fst kv)))) by (clear - H; tauto).
  intro Hin.
  rewrite keep_time_spec by (try apply regular_filter; auto).
  apply not_iff_compat. split.
  - intros (Hk & kv' & H1 & H2 & H3). apply in_map_iff in Hk. destruct Hk as (x & Ex & Hx).
    apply in_now in Hx, H1. rewrite Ex in Hx. split; [tauto|]. exists kv'. intuition congruence.
  - intros (Ht & kv' & H1 & H2 & H3 & H4). split; [apply in_map, in_now; auto|].
    exists kv'. split; [apply in_now; split; [exact H1|congruence]|auto].
Qed.

Lemma option_Z_eq_dec (a b : option Z) : {a = b} + {a <> b}.
Proof. decide equality. apply Z.eq_dec. Qed.

Lemma prune_fold_spec {V} ts (d : dict V) :
  regular d ->
  forall kv, In kv (fold_left (fun res t => prune_time t res) (map Some ts) d) <->
             In kv d /\ ~ (In (e_time (fst kv)) (map Some ts) /\ dominated d (fst kv)).
Proof.
  intro Hreg. induction ts as [|tau ts IH] using rev_ind; intro kv.
  - simpl. tauto.
  - rewrite map_app, fold_left_app. simpl. set (res := fold_left _ (map Some ts) d) in *.
    assert (Hrr : regular res) by (intros x Hx; apply Hreg, IH, Hx).
    rewrite prune_time_spec by exact Hrr. rewrite IH, in_app_iff. simpl. split.
    + intros [[Hin Hnd] Hnt]. split; [exact Hin|]. intros [[Hd|[Hd|[]]] Hdom]; [exact (Hnd (conj Hd Hdom))|].
      apply Hnt. split; [congruence|]. destruct Hdom as (kv' & H1 & H2 & H3 & H4).
      (* the dominating record is still there unless tau was processed before, and then kv would be gone *)
      destruct (in_dec option_Z_eq_dec (Some tau) (map Some ts)) as [Hp|Hp].
      * exfalso. apply Hnd. split; [congruence|]. exists kv'. auto.
      * exists kv'. split; [|auto]. apply IH. split; [exact H1|]. intros [Hd' _]. apply Hp. congruence.
    + intros [Hin Hnd]. split; [split; [exact Hin|intros [Hd Hdom]; exact (Hnd (conj (or_introl Hd) Hdom))]|].
      intros (Ht & kv' & H1 & H2). apply Hnd. split; [right; left; congruence|].
      apply IH in H1. exists kv'. split; [apply H1|exact H2].
Qed.

Lemma uinsert_in x y l : In x (uinsert y l) <-> In x (y :: l).
Proof.
  induction l as [|a l IH]; simpl; [tauto|].
  destruct (y <? a); [simpl; tauto|]. destruct (y =? a) eqn:E; simpl.
  - apply Z.eqb_eq in E. subst. clear. tauto.
  - simpl in IH. rewrite IH. clear. tauto.
Qed.

Lemma usort_in x l : In x (usort l) <-> In x l.
Proof. induction l as [|a l IH]; simpl; [tauto|]. rewrite uinsert_in. simpl. rewrite IH. clear. tauto. Qed.

Lemma times_restarted_regular {V} (d : dict V) :
  regular d ->
  exists ts, times_restarted d = Some (map Some ts) /\
             forall kv, In kv d -> 0 < nr (fst kv) -> In (e_time (fst kv)) (map Some ts).
Proof.
  intro Hreg. unfold times_restarted.
  destruct (existsb _ d) eqn:E0.
  { apply existsb_exists in E0. destruct E0 as (kv & H1 & H2).
    destruct (Hreg _ H1) as (_ & _ & r & Hr & _). rewrite Hr in H2. discriminate. }
  (* the restarted times are all given: the list is map Some L *)
  set (restarted := filter (fun kv : entry * V => 0 <? nr (fst kv)) d).
  set (L := map (fun kv => unsome (e_time (fst kv))) restarted).
  assert (EL : map (fun kv => e_time (fst kv)) restarted = map Some L).
  { unfold L. rewrite map_map. apply map_ext_in. intros kv Hin. apply filter_In in Hin.
    destruct (Hreg _ (proj1 Hin)) as [[t Ht] _]. rewrite Ht. reflexivity. }
  assert (HL : forall kv, In kv d -> 0 < nr (fst kv) -> In (e_time (fst kv)) (map Some L)).
  { intros kv Hin Hnr. rewrite <- EL. apply (in_map (fun kv => e_time (fst kv))), filter_In.
    split; [exact Hin|apply Z.ltb_lt, Hnr]. }
  rewrite EL. clearbody L.
  destruct L as [|t [|t' L]]; [exists []; split; [reflexivity|exact HL]|exists [t]; split; [reflexivity|exact HL]|].
  exists (usort (t :: t' :: L)). split.
  - assert (E1 : forall l : list Z, existsb is_none (map Some l) = false) by (induction l; auto).
    simpl. rewrite E1, map_map, map_id. reflexivity.
  - intros kv Hin Hnr. apply (incl_map Some (fun x => proj2 (usort_in x _))), HL; assumption.
Qed.

(* first phase of the pruning on a regular dictionary: exactly the entries that carry the largest restart
   count of their (time, type) group survive *)
Theorem prune1_spec {V} (d : dict V) :
  regular d ->
  exists r, prune1 d = Some r /\ forall kv, In kv r <-> In kv d /\ ~ dominated d (fst kv).
Proof.
  intro Hreg. destruct (times_restarted_regular d Hreg) as (ts & Ets & Hts).
  unfold prune1. rewrite Ets. eexists. split; [reflexivity|]. intro kv.
  rewrite (prune_fold_spec ts d Hreg).
  enough (H : In kv d -> dominated d (fst kv) -> In (e_time (fst kv)) (map Some ts)) by (clear - H; tauto).
  (* a dominating record has a positive count, so its time is among the processed ones *)
  intros Hin (kv' & H1 & H2 & H3 & H4).
  rewrite <- H2. apply Hts; [exact H1|]. pose proof (regular_nr_nonneg _ (Hreg _ Hin)). lia.
Qed.

Lemma prune1_is_filter {V} (d r : dict V) : prune1 d = Some r -> exists P, r = filter P d.
Proof.
  unfold prune1. destruct (times_restarted d) as [ts|]; [|discriminate]. intros [= <-].
  revert d. induction ts as [|t ts IH]; intro d; simpl.
  - exists (fun _ => true). symmetry. apply filter_true.
  - rewrite prune_time_filter. destruct (IH (filter (keep_time (filter_plain (kw_time t) d)) d)) as [P ->].
    rewrite filter_filter. eexists. reflexivity.
Qed.

Lemma matchesP_tt s t k : matchesP (kw_tt (Some s) t) k <-> fmatchP t (e_time k) /\ e_type k = Some s.
Proof. rewrite <- matches_spec, matches_tt, andb_true_iff, (fmatch_spec Z.eqb_eq), (fmatch_some String.eqb_eq). reflexivity. Qed.

Section Filter.
Context {V : Type} (truthy : V -> bool).

(* t is the time of a truthy '_recomputed' marker that carries the largest restart count among the markers
   recorded at that time *)
Definition marked (stats : dict V) (t : option Z) : Prop :=
  exists m, In m stats /\ e_type (fst m) = Some recomputed_tag /\ truthy (snd m) = true /\ e_time (fst m) = t /\
            ~ dominated (filter_plain kw_recomputed stats) (fst m).

Lemma filter_stats_plain stats kw : filter_stats truthy stats kw None = Some (filter_plain kw stats).
Proof. reflexivity. Qed.

(* the recursive call of the source terminates after one level *)
Lemma filter_stats_markers stats b : filter_stats truthy stats kw_recomputed (Some b) = filter_markers stats.
Proof.
  unfold filter_stats, filter_markers. destruct (prune1 (filter_plain kw_recomputed stats)); reflexivity.
Qed.

(* the second phase on a part r of the statistics: the records at marked times go (mk: the surviving markers) *)
Lemma prune2_markers_spec stats mk r kv :
  regular stats -> incl r stats ->
  (forall m, In m mk <-> In m (filter_plain kw_recomputed stats) /\ ~ dominated (filter_plain kw_recomputed stats) (fst m)) ->
  (In kv (prune2 (keys (filter (fun m => truthy (snd m)) mk)) r) <-> In kv r /\ ~ marked stats (e_time (fst kv))).
Proof.
  intros Hreg Hr Hmk. rewrite prune2_filter, filter_In, forallb_forall.
  split; intros [Hin H]; (split; [exact Hin|]); apply Hr in Hin; destruct (Hreg _ Hin) as [[t Ht] _]; unfold marked, keys in *.
  - intros (m & M1 & M2 & M3 & M4 & M5).
    assert (Hs : In (fst m) (map fst (filter (fun m => truthy (snd m)) mk))).
    { apply in_map, filter_In. split; [|exact M3]. apply Hmk. split; [apply in_recomputed; auto|exact M5]. }
    apply H in Hs. rewrite matches_time, M4, Ht in Hs. simpl in Hs. rewrite Z.eqb_refl in Hs. discriminate.
  - intros step Hs. apply negb_true_iff, not_true_iff_false. intro Hm. apply H.
    apply in_map_iff in Hs. destruct Hs as (m & <- & Hs).
    apply filter_In in Hs. destruct Hs as [Hs Htr]. apply Hmk in Hs. destruct Hs as [Hs Hnd].
    apply in_recomputed in Hs. destruct Hs as [Hs Hty]. exists m.
    split; [exact Hs|]. split; [exact Hty|]. split; [exact Htr|]. split; [|exact Hnd].
    rewrite matches_time, (fmatch_spec Z.eqb_eq) in Hm.
    destruct (Hreg _ Hs) as [[t' Ht'] _]. rewrite Ht' in *. symmetry. apply Hm. reflexivity.
Qed.

Theorem filter_stats_regular_spec stats kw b :
  regular stats ->
  exists r, filter_stats truthy stats kw (Some b) = Some r /\
    (exists P, r = filter P stats) /\
    forall kv, In kv r <->
      In kv stats /\ matchesP kw (fst kv) /\ ~ dominated (filter_plain kw stats) (fst kv) /\
      (kw_is_recomputed kw = false -> ~ marked stats (e_time (fst kv))).
Proof.
  intro Hreg. unfold filter_stats.
  destruct (prune1_spec (filter_plain kw stats)) as (r1 & E1 & S1); [apply regular_filter, Hreg|]. rewrite E1.
  destruct (prune1_is_filter _ _ E1) as [P1 HP1]. unfold filter_plain in HP1. rewrite filter_filter in HP1.
  destruct (kw_is_recomputed kw).
  - exists r1. split; [reflexivity|]. split; [eexists; exact HP1|].
    intro kv. rewrite S1, filter_plain_in. split.
    + intros [[Hin Hm] Hnd]. split; [exact Hin|]. split; [exact Hm|]. split; [exact Hnd|discriminate].
    + intros (Hin & Hm & Hnd & _). split; [split|]; assumption.
  - unfold filter_markers. destruct (prune1_spec (filter_plain kw_recomputed stats)) as (mk & E2 & S2); [apply regular_filter, Hreg|].
    rewrite E2. eexists. split; [reflexivity|]. split.
    + rewrite prune2_filter, HP1, filter_filter. eexists. reflexivity.
    + intro kv. rewrite (prune2_markers_spec stats mk r1 kv Hreg), S1, filter_plain_in; [| |exact S2].
      * split.
        -- intros [[[Hin Hm] Hnd] Hmk]. split; [exact Hin|]. split; [exact Hm|]. split; [exact Hnd|intros _; exact Hmk].
        -- intros (Hin & Hm & Hnd & Hmk). split; [split; [split|]; assumption|exact (Hmk eq_refl)].
      * intros x Hx. apply S1, proj1, filter_In in Hx. apply Hx.
Qed.

Section Accepted.
Variable acc : entry -> bool.      (* the key belongs to a record of an accepted step *)
Variable d : dict V.
Hypothesis Hreg : regular d.
(* hypotheses about the records other than the '_recomputed' markers: *)
(* an accepted record carries the largest restart count recorded for its (time, type) *)
Hypothesis Hmax : forall kv kv', In kv d -> In kv' d -> e_type (fst kv) <> Some recomputed_tag -> acc (fst kv) = true ->
  e_time (fst kv') = e_time (fst kv) -> e_type (fst kv') = e_type (fst kv) -> nr (fst kv') <= nr (fst kv).
(* a superseded record is either outnumbered by an accepted record of its (time, type) or sits at a marked time *)
Hypothesis Hsup : forall kv, In kv d -> e_type (fst kv) <> Some recomputed_tag -> acc (fst kv) = false ->
  (exists kv', In kv' d /\ acc (fst kv') = true /\ e_time (fst kv') = e_time (fst kv) /\ e_type (fst kv') = e_type (fst kv) /\
               nr (fst kv) < nr (fst kv')) \/ marked d (e_time (fst kv)).
(* accepted records do not sit at marked times *)
Hypothesis Hmark : forall kv, In kv d -> e_type (fst kv) <> Some recomputed_tag -> acc (fst kv) = true -> ~ marked d (e_time (fst kv)).

Theorem filter_recomputed_keeps_accepted s t b :
  s <> recomputed_tag ->
  exists r, filter_stats truthy d (kw_tt (Some s) t) (Some b) = Some r /\
    (exists P, r = filter P d) /\
    forall kv, In kv r <-> In kv d /\ matchesP (kw_tt (Some s) t) (fst kv) /\ acc (fst kv) = true.
Proof.
  intro Hty. destruct (filter_stats_regular_spec d (kw_tt (Some s) t) b Hreg) as (r & E & HP & S).
  exists r. split; [exact E|]. split; [exact HP|]. intro kv. rewrite S.
  assert (Ek : kw_is_recomputed (kw_tt (Some s) t) = false) by exact (proj2 (String.eqb_neq _ _) Hty).
  assert (Hnm : matchesP (kw_tt (Some s) t) (fst kv) -> e_type (fst kv) <> Some recomputed_tag)
    by (intros [_ Hm]%matchesP_tt; congruence).
  split.
  - intros (Hin & Hm & Hnd & Hnmk). split; [exact Hin|]. split; [exact Hm|].
    destruct (acc (fst kv)) eqn:Ea; [reflexivity|]. exfalso.
    destruct (Hsup _ Hin (Hnm Hm) Ea) as [(kv' & H1 & H2 & H3 & H4 & H5)|Hmk]; [|exact (Hnmk Ek Hmk)].
    apply Hnd. exists kv'. split; [|auto]. apply filter_plain_in. split; [exact H1|].
    rewrite matchesP_tt in *. rewrite H3, H4. exact Hm.
  - intros (Hin & Hm & Ha). split; [exact Hin|]. split; [exact Hm|]. split; [|intros _; apply Hmark; auto].
    intros (kv' & H1 & H2 & H3 & H4). apply filter_In in H1. pose proof (Hmax _ _ Hin (proj1 H1) (Hnm Hm) Ha H2 H3). lia.
Qed.
End Accepted.
End Filter.

Lemma regularb_spec d : regularb d = true <-> regular d.
Proof.
  unfold regularb. rewrite forallb_forall. split; intros H kv Hin; specialize (H _ Hin).
  - unfold regular_entry. destruct (e_time (fst kv)), (e_type (fst kv)), (e_num_restarts (fst kv)) as [r|]; try discriminate.
    simpl in H. apply Z.leb_le in H. repeat esplit. exact H.
  - destruct H as ((t & ->) & (s & ->) & r & -> & Hr). apply Z.leb_le, Hr.
Qed.

Lemma is_marker_spec k : is_marker k = true <-> e_type k = Some recomputed_tag.
Proof. apply (oeqb_spec String.eqb_eq). Qed.

Lemma not_marker k : e_type k <> Some recomputed_tag -> is_marker k = false.
Proof. rewrite <- is_marker_spec. apply not_true_is_false. Qed.

Lemma same_tt_spec a b : same_tt a b = true <-> e_time a = e_time b /\ e_type a = e_type b.
Proof.
  unfold same_tt. rewrite <- andb_lazy_alt, andb_true_iff, (oeqb_spec String.eqb_eq), (oeqb_spec Z.eqb_eq). tauto.
Qed.

Lemma markedb_spec d t : markedb d t = true <-> marked ztruthy d t.
Proof.
  unfold markedb, marked. rewrite existsb_exists. split; intros (m & Hin & H); exists m; (split; [exact Hin|]).
  - apply andb_prop in H as [[[H1 H2]%andb_prop H3]%andb_prop H4].
    apply is_marker_spec in H1. apply (oeqb_spec Z.eqb_eq) in H3. apply negb_true_iff, not_true_iff_false in H4.
    repeat split; try assumption.
    intros (m' & [D1 D1']%in_recomputed & D2 & D3 & D4). apply H4, existsb_exists. exists m'. split; [exact D1|].
    rewrite (proj2 (is_marker_spec _) D1'), (proj2 (oeqb_spec Z.eqb_eq _ _) D2), (proj2 (Z.ltb_lt _ _) D4). reflexivity.
  - destruct H as (H1 & H2 & H3 & H4).
    rewrite (proj2 (is_marker_spec _) H1), H2, (proj2 (oeqb_spec Z.eqb_eq _ _) H3). apply negb_true_iff, not_true_iff_false.
    intros (m' & D1 & [[D2 D3]%andb_prop D4]%andb_prop)%existsb_exists.
    apply is_marker_spec in D2. apply (oeqb_spec Z.eqb_eq) in D3. apply Z.ltb_lt in D4.
    apply H4. exists m'. split; [apply in_recomputed; auto|]. split; [exact D3|]. split; [congruence|exact D4].
Qed.

(* the other two sub-tests in the body of check_accepted *)
Lemma largest_countb_spec (d : dict Z) (kv : entry * Z) :
  forallb (fun kv' => negb (same_tt (fst kv') (fst kv)) || (nr (fst kv') <=? nr (fst kv))) d = true <->
  forall kv', In kv' d -> e_time (fst kv') = e_time (fst kv) -> e_type (fst kv') = e_type (fst kv) -> nr (fst kv') <= nr (fst kv).
Proof.
  rewrite forallb_forall. split; intros H kv' Hin.
  - intros Ht Hy. specialize (H _ Hin). rewrite (proj2 (same_tt_spec _ _) (conj Ht Hy)) in H. apply Z.leb_le, H.
  - destruct (same_tt (fst kv') (fst kv)) eqn:E; [|reflexivity]. apply same_tt_spec in E. apply Z.leb_le, H; tauto.
Qed.

Lemma outnumberedb_spec acc (d : dict Z) (kv : entry * Z) :
  existsb (fun kv' => memb (fst kv') acc && same_tt (fst kv') (fst kv) && (nr (fst kv) <? nr (fst kv'))) d = true <->
  exists kv', In kv' d /\ memb (fst kv') acc = true /\ e_time (fst kv') = e_time (fst kv) /\ e_type (fst kv') = e_type (fst kv) /\
              nr (fst kv) < nr (fst kv').
Proof.
  rewrite existsb_exists. split; intros (kv' & Hin & H); exists kv'; (split; [exact Hin|]).
  - apply andb_prop in H as [[H1 H2]%andb_prop H3]. apply same_tt_spec in H2. apply Z.ltb_lt in H3. tauto.
  - destruct H as (H1 & H2 & H3 & H4). rewrite H1, (proj2 (same_tt_spec _ _) (conj H2 H3)). apply Z.ltb_lt, H4.
Qed.

Theorem check_accepted_sound acc d :
  check_accepted acc d = true ->
  forall s t b, s <> recomputed_tag ->
  exists r, filter_stats ztruthy d (kw_tt (Some s) t) (Some b) = Some r /\
    (exists P, r = filter P d) /\
    forall kv, In kv r <-> In kv d /\ matchesP (kw_tt (Some s) t) (fst kv) /\ In (fst kv) acc.
Proof.
  unfold check_accepted. intros H s t b Hty.
  apply andb_prop in H as [H H3]. apply andb_prop in H as [H H2]. apply andb_prop in H as [H0 H1].
  rewrite forallb_forall in H1, H2, H3.
  destruct (filter_recomputed_keeps_accepted ztruthy (fun k => memb k acc) d (proj1 (regularb_spec d) H0)) with (s := s) (t := t) (b := b)
    as (r & E & HP & S); [| | |exact Hty|].
  - intros kv kv' Hin Hin' Hnm Ha. specialize (H1 _ Hin). rewrite (not_marker _ Hnm), Ha in H1.
    exact (proj1 (largest_countb_spec d kv) H1 kv' Hin').
  - intros kv Hin Hnm Ha. specialize (H2 _ Hin). rewrite (not_marker _ Hnm), Ha in H2. simpl in H2.
    rewrite orb_true_iff, outnumberedb_spec, markedb_spec in H2. exact H2.
  - intros kv Hin Hnm Ha. specialize (H3 _ Hin). rewrite (not_marker _ Hnm), Ha in H3. simpl in H3.
    rewrite negb_true_iff, <- not_true_iff_false, markedb_spec in H3. exact H3.
  - exists r. split; [exact E|]. split; [exact HP|]. intro kv. rewrite S, memb_spec. reflexivity.
Qed.

Lemma markedb_m_eq d t : markedb_m (filter (fun kv => is_marker (fst kv)) d) t = markedb d t.
Proof.
  unfold markedb_m, markedb. rewrite existsb_filter. apply existsb_ext. intro m.
  rewrite existsb_filter.
  rewrite (existsb_ext _ (fun m' => is_marker (fst m') && oeqb Z.eqb (e_time (fst m')) (e_time (fst m)) && (nr (fst m) <? nr (fst m')))).
  - destruct (is_marker (fst m)), (ztruthy (snd m)); reflexivity.
  - intro x. destruct (is_marker (fst x)); reflexivity.
Qed.

Theorem check_accepted_fast_sound acc d : check_accepted_fast acc d = true -> check_accepted acc d = true.
Proof.
  unfold check_accepted_fast, check_accepted. destruct (regularb d); [simpl|discriminate].
  rewrite forallb_forall. intro H.
  repeat (apply andb_true_intro; split); apply forallb_forall; intros kv Hin;
    specialize (H _ (in_map _ _ _ Hin)); cbn [fst snd] in H; rewrite markedb_m_eq in H;
    (destruct (is_marker (fst kv)); [reflexivity|]); destruct (memb (fst kv) acc); simpl; try reflexivity.
  - apply andb_prop in H as [H _].   (* `if a then b else false` is `a && b`, `if a then true else b` is `a || b` *)
    apply forallb_forall. intros kv' Hin'. apply (proj1 (forallb_forall _ _) H) in Hin'.
    destruct (same_tt (fst kv') (fst kv)); [exact Hin'|reflexivity].
  - apply orb_true_intro. apply orb_prop in H as [H|H]; [left|right; exact H].
    rewrite existsb_map in H. apply existsb_exists in H as (kv' & Hin' & H). apply existsb_exists. exists kv'. split; [exact Hin'|].
    cbn [fst snd] in H. destruct (memb (fst kv') acc), (same_tt (fst kv') (fst kv)); try discriminate; exact H.
  - apply andb_prop in H as [_ H]. exact H.
Qed.

(* ascending order on sort keys of one kind *)
Definition item_leP (a b : item) : Prop :=
  match a, b with
  | IZ x, IZ y => x <= y
  | IS x, IS y => ~ String_as_OT.lt y x
  | _, _ => False
  end.

Definition same_kind (a b : item) : Prop :=
  match a, b with IZ _, IZ _ | IS _, IS _ => True | _, _ => False end.

Lemma str_ltb_lt a b : String.ltb a b = true <-> String_as_OT.lt a b.
Proof.
  unfold String.ltb. rewrite <- String_as_OT.cmp_lt. unfold String_as_OT.cmp.
  destruct (String.compare a b); split; congruence.
Qed.

Lemma str_lt_irrefl a : ~ String_as_OT.lt a a.
Proof. intro H. exact (String_as_OT.lt_not_eq _ _ H eq_refl). Qed.

Lemma item_ltb_irrefl a : item_ltb a a = false.
Proof.
  destruct a; simpl; [apply Z.ltb_irrefl| |reflexivity].
  apply not_true_iff_false. rewrite str_ltb_lt. apply str_lt_irrefl.
Qed.

Lemma item_ltb_leP a b : item_ltb a b = true -> item_leP a b.
Proof.
  destruct a as [x|x|], b as [y|y|]; simpl; try discriminate; [lia|].
  rewrite str_ltb_lt. intros H H'. exact (str_lt_irrefl _ (String_as_OT.lt_trans _ _ _ H H')).
Qed.

Lemma item_nltb_leP a b : same_kind a b -> item_ltb b a = false -> item_leP a b.
Proof.
  destruct a as [x|x|], b as [y|y|]; simpl; try contradiction; intros _; [lia|].
  rewrite <- not_true_iff_false, str_ltb_lt. auto.
Qed.

Lemma item_leP_trans a b c : item_leP a b -> item_leP b c -> item_leP a c.
Proof.
  destruct a as [x|x|], b as [y|y|], c as [z|z|]; simpl; try contradiction; [lia|].
  intros H1 H2 H3.
  destruct (String_as_OT.compare z y) as [L|E|L].
  - exact (H2 L).
  - rewrite E in H3. exact (H1 H3).
  - exact (H1 (String_as_OT.lt_trans _ _ _ L H3)).
Qed.

Lemma item_eqb_spec a b : item_eqb a b = true <-> a = b.
Proof.
  destruct a, b; simpl; try (split; congruence).
  - rewrite Z.eqb_eq. split; congruence.
  - rewrite String.eqb_eq. split; congruence.
Qed.

Section Sort.
Context {V : Type}.
Let leV (x y : item * V) : Prop := item_leP (fst x) (fst y).
Let kindV (x y : item * V) : Prop := same_kind (fst x) (fst y).

Lemma sinsert_perm (x : item * V) l : Permutation (sinsert x l) (x :: l).
Proof.
  induction l as [|y r IH]; simpl; [reflexivity|].
  destruct (item_ltb (fst y) (fst x)); [|reflexivity].
  rewrite IH. apply perm_swap.
Qed.

Lemma ssort_perm (l : list (item * V)) : Permutation (ssort l) l.
Proof. induction l as [|x l IH]; simpl; [reflexivity|]. rewrite sinsert_perm, IH. reflexivity. Qed.

Lemma sinsert_sorted x l : Forall (kindV x) l -> StronglySorted leV l -> StronglySorted leV (sinsert x l).
Proof.
  induction l as [|y r IH]; intros HP Hs; simpl; [repeat constructor|].
  inversion HP as [|? ? Py HPr]. inversion Hs as [|? ? Hsr Hy]. subst.
  destruct (item_ltb (fst y) (fst x)) eqn:E; constructor.
  - apply IH; assumption.
  - rewrite sinsert_perm. constructor; [apply item_ltb_leP, E|exact Hy].
  - exact Hs.
  - apply item_nltb_leP in E; [|exact Py]. constructor; [exact E|].
    apply (Forall_impl _ (fun z => item_leP_trans _ _ _ E) Hy).
Qed.

Lemma ssort_sorted l : ForallOrdPairs kindV l -> StronglySorted leV (ssort l).
Proof.
  induction 1 as [|x l Hx _ IH]; simpl; [constructor|].
  apply sinsert_sorted; [rewrite ssort_perm|]; assumption.
Qed.

(* stability: the records with one and the same sort key keep their dictionary order *)
Lemma sinsert_stable a x l :
  filter (fun y => item_eqb (fst y) a) (sinsert x l) = filter (fun y : item * V => item_eqb (fst y) a) (x :: l).
Proof.
  induction l as [|y r IH]; simpl; [reflexivity|].
  destruct (item_ltb (fst y) (fst x)) eqn:E; [|reflexivity]. simpl. rewrite IH. simpl.
  destruct (item_eqb (fst x) a) eqn:Ex, (item_eqb (fst y) a) eqn:Ey; try reflexivity.
  (* x and y carry the same key a, yet y < x *)
  apply item_eqb_spec in Ex, Ey. rewrite Ex, Ey, item_ltb_irrefl in E. discriminate.
Qed.

Lemma ssort_stable a l :
  filter (fun y => item_eqb (fst y) a) (ssort l) = filter (fun y : item * V => item_eqb (fst y) a) l.
Proof. induction l as [|x l IH]; simpl; [reflexivity|]. rewrite sinsert_stable. simpl. rewrite IH. reflexivity. Qed.
End Sort.

Lemma getattr_same_kind f k k' :
  getattr f k <> INone -> getattr f k' <> INone -> same_kind (getattr f k) (getattr f k').
Proof.
  assert (Hoz : forall o o', oz o <> INone -> oz o' <> INone -> same_kind (oz o) (oz o'))
    by (intros [?|] [?|]; simpl; congruence || trivial).
  destruct f; simpl; try apply Hoz.
  destruct (e_type k), (e_type k'); simpl; congruence || trivial.
Qed.

(* sort_stats: ascending in the chosen key, a permutation of the (key, value) pairs, stable *)
Theorem sort_sorted_perm {V} (d : dict V) f l :
  sort_stats d f = Some l ->
  Permutation l (map (fun kv => (getattr f (fst kv), snd kv)) d) /\
  StronglySorted (fun x y => item_leP (fst x) (fst y)) l /\
  forall a, filter (fun y => item_eqb (fst y) a) l = filter (fun y => item_eqb (fst y) a) (map (fun kv => (getattr f (fst kv), snd kv)) d).
Proof.
  unfold sort_stats. set (items := map (fun kv : entry * V => (getattr f (fst kv), snd kv)) d).
  assert (Hk : forall x y, In x items -> In y items -> fst x <> INone -> fst y <> INone -> same_kind (fst x) (fst y)).
  { intros x y Hx Hy. apply in_map_iff in Hx, Hy. destruct Hx as (kv & <- & _), Hy as (kv' & <- & _). apply getattr_same_kind. }
  clearbody items. destruct items as [|x [|y r]]; try (intros [= <-]; repeat constructor).
  destruct (existsb _ (x :: y :: r)) eqn:E; [discriminate|]. intros [= <-].
  assert (Hnn : forall z, In z (x :: y :: r) -> fst z <> INone).
  { intros z Hz Hn. apply not_true_iff_false in E. apply E, existsb_exists. exists z. rewrite Hn. auto. }
  change (sinsert x (sinsert y (ssort r))) with (ssort (x :: y :: r)).
  split; [apply ssort_perm|]. split; [|intro a; apply ssort_stable].
  apply ssort_sorted, ForallPairs_ForallOrdPairs. intros a b Ha Hb. apply Hk; auto.
Qed.

Definition wf {V} (d : dict V) : Prop := NoDup (keys d).

Lemma dict_get_set {V} k (v : V) d k' :
  dict_get k' (dict_set k v d) = if entry_eqb k k' then Some v else dict_get k' d.
Proof.
  induction d as [|[k0 v0] r IH]; simpl; [reflexivity|].
  destruct (entry_eqb k0 k) eqn:E0; simpl.
  - apply entry_eqb_spec in E0. subst k0. destruct (entry_eqb k k'); reflexivity.
  - rewrite IH. destruct (entry_eqb k0 k') eqn:E1, (entry_eqb k k') eqn:E2; try reflexivity.
    apply entry_eqb_spec in E1, E2. subst. rewrite entry_eqb_refl in E0. discriminate.
Qed.

Lemma dict_get_set_type {V} k (v : V) d k' : e_type k <> e_type k' -> dict_get k' (dict_set k v d) = dict_get k' d.
Proof. intro H. rewrite dict_get_set, (proj2 (entry_eqb_neq k k')); [reflexivity|congruence]. Qed.

Lemma keys_dict_set {V} k (v : V) d k' : In k' (keys (dict_set k v d)) <-> In k' (k :: keys d).
Proof.
  induction d as [|[k0 v0] r IH]; simpl; [tauto|].
  destruct (entry_eqb k0 k) eqn:E0; simpl.
  - apply entry_eqb_spec in E0. subst. clear. tauto.
  - simpl in IH. rewrite IH. clear. tauto.
Qed.

Lemma dict_set_wf {V} k (v : V) d : wf d -> wf (dict_set k v d).
Proof.
  unfold wf. induction d as [|[k0 v0] r IH]; simpl; intro H.
  - repeat constructor. intros [].
  - inversion H. subst. destruct (entry_eqb k0 k) eqn:E0; simpl; constructor; auto.
    rewrite keys_dict_set. intros [->|Hin]; [|contradiction].
    rewrite entry_eqb_refl in E0. discriminate.
Qed.

Lemma wf_filter {V} (P : entry * V -> bool) d : wf d -> wf (filter P d).
Proof.
  unfold wf, keys. induction d as [|kv r IH]; simpl; [auto|]. rewrite NoDup_cons_iff. intros [Hk Hr].
  destruct (P kv); simpl; [|auto]. constructor; [|auto].
  intro Hin. apply Hk. apply in_map_iff in Hin. destruct Hin as (x & <- & Hx). apply filter_In in Hx. apply in_map. tauto.
Qed.

Lemma dict_get_none {V} (d : dict V) k : dict_get k d = None <-> ~ In k (keys d).
Proof.
  induction d as [|[k0 v0] r IH]; simpl; [tauto|].
  destruct (entry_eqb k0 k) eqn:E0.
  - apply entry_eqb_spec in E0. subst. split; [discriminate|tauto].
  - rewrite IH. clear IH. apply entry_eqb_neq in E0. tauto.
Qed.

Lemma dict_get_in {V} (d : dict V) k v : wf d -> (In (k, v) d <-> dict_get k d = Some v).
Proof.
  unfold wf. induction d as [|[k0 v0] r IH]; simpl; intro H.
  - split; [tauto|discriminate].
  - inversion H. subst. destruct (entry_eqb k0 k) eqn:E0.
    + apply entry_eqb_spec in E0. subst. split; [|intros [= ->]; auto].
      intros [[= ->]|Hin]; [reflexivity|]. exfalso. apply H2. exact (in_map fst _ _ Hin).
    + rewrite <- IH by assumption. split; [|tauto]. intros [[= -> ->]|Hin]; [|exact Hin].
      rewrite entry_eqb_refl in E0. discriminate.
Qed.

(* {**a, **b}: b wins *)
Lemma dict_update_get {V} (a b : dict V) k :
  wf b -> dict_get k (dict_update a b) = match dict_get k b with Some v => Some v | None => dict_get k a end.
Proof.
  unfold dict_update, wf. revert a. induction b as [|[k0 v0] r IH]; intros a H; simpl; [reflexivity|].
  inversion H. subst. rewrite IH by assumption. destruct (entry_eqb k0 k) eqn:E0.
  - apply entry_eqb_spec in E0. subst. rewrite (proj2 (dict_get_none r k)), dict_get_set, entry_eqb_refl by assumption. reflexivity.
  - destruct (dict_get k r); [reflexivity|]. rewrite dict_get_set, E0. reflexivity.
Qed.

Lemma dict_update_wf {V} (a b : dict V) : wf a -> wf (dict_update a b).
Proof. apply fold_left_inv. intros. apply dict_set_wf. assumption. Qed.

(* the stale-counter scenario of LogWork: the last refresh came from another step (count 0), the step's own count is 3 *)
Example logwork_stale_key :
  let s := SV 0 (Some 0) 10 20 0 3 1 false (Some 3) 0 in
  let h := logwork_post_step s 7 (hook_refresh (Some (Some 0)) hook_init) in
  map (fun kv => e_num_restarts (fst kv)) (h_stats h) = [Some 0] /\ sv_nr s = Some 3.
Proof. vm_compute. auto. Qed.

(* the key add_to_stats writes carries the hook's own counter (whatever the caller passed): the counter of the latest
   refresh, or, without one (LogWork.post_step), whatever the previous callback left *)
Lemma add_to_stats_get {V} k (v : V) h k' :
  dict_get k' (h_stats (add_to_stats k v h)) =
  if entry_eqb (with_nr k (h_nr h)) k' then Some v else dict_get k' (h_stats h).
Proof. apply dict_get_set. Qed.

Lemma add_to_stats_wf {V} k (v : V) h : wf (h_stats h) -> wf (h_stats (add_to_stats k v h)).
Proof. apply dict_set_wf. Qed.

Lemma increment_stats_wf {V} f k (v : V) i h : wf (h_stats h) -> wf (h_stats (increment_stats f k v i h)).
Proof.
  intro H. unfold increment_stats. simpl. destruct (dict_get _ _); [|destruct i]; apply dict_set_wf; exact H.
Qed.

Theorem increment_stats_get {V} f k (v : V) i h :
  dict_get (with_nr k (h_nr h)) (h_stats (increment_stats f k v i h)) =
  Some (match dict_get (with_nr k (h_nr h)) (h_stats h) with
        | Some old => f old v
        | None => match i with Some x => x | None => v end
        end).
Proof.
  unfold increment_stats. simpl. destruct (dict_get _ (h_stats h)); [|destruct i]; rewrite dict_get_set, entry_eqb_refl; reflexivity.
Qed.

(* merge of the hooks' dictionaries: the last hook that holds a key provides its value; nothing is lost *)
Lemma return_stats_fold {V} (hooks : list (hook V)) acc k :
  Forall (fun h => wf (h_stats h)) hooks ->
  dict_get k (fold_left (fun acc h => dict_update acc (h_stats h)) hooks acc) =
  fold_left (fun o h => match dict_get k (h_stats h) with Some v => Some v | None => o end) hooks (dict_get k acc).
Proof.
  intro H. revert acc. induction H as [|h hs Hh _ IH]; intro acc; simpl; [reflexivity|].
  rewrite IH, dict_update_get by exact Hh. reflexivity.
Qed.

Lemma return_stats_wf {V} (hooks : list (hook V)) : wf (return_stats hooks).
Proof. unfold return_stats. apply fold_left_inv; [intros; apply dict_update_wf; assumption|constructor]. Qed.

(* DefaultHooks.post_step: one 'niter' record per step, keyed by slot, start time, iteration, sweep, restart count;
   of the four records post_step writes, only the 'niter' one can be seen under a 'niter' key *)
Lemma default_post_step_niter s h k :
  e_type k = Some "niter"%string ->
  dict_get k (h_stats (default_post_step s h)) = if entry_eqb (niter_key s) k then Some (sv_iter s) else dict_get k (h_stats h).
Proof.
  intro Hk. unfold default_post_step, add_to_stats, hook_refresh. simpl.
  rewrite !dict_get_set_type by (simpl; rewrite Hk; discriminate). apply dict_get_set.
Qed.

Lemma default_post_step_wf s h : wf (h_stats h) -> wf (h_stats (default_post_step s h)).
Proof. intro H. unfold default_post_step. repeat apply add_to_stats_wf. exact H. Qed.

Lemma default_post_step_keys s h k :
  In k (keys (h_stats (default_post_step s h))) -> e_type k = Some "niter"%string -> k = niter_key s \/ In k (keys (h_stats h)).
Proof.
  unfold default_post_step, add_to_stats, hook_refresh. simpl. intros H Hk.
  do 3 (apply keys_dict_set in H; destruct H as [<-|H]; [discriminate Hk|]).
  apply keys_dict_set in H. destruct H as [<-|H]; [left; reflexivity|right; exact H].
Qed.

Lemma default_run_snoc svs s : default_run (svs ++ [s]) = default_post_step s (default_run svs).
Proof. unfold default_run. rewrite fold_left_app. reflexivity. Qed.

Lemma default_run_wf svs : wf (h_stats (default_run svs)).
Proof. unfold default_run. apply fold_left_inv; [intros; apply default_post_step_wf; assumption|constructor]. Qed.

(* keys of different steps differ as soon as the start times differ *)
Theorem key_injective s s' : niter_key s = niter_key s' ->
  sv_slot s = sv_slot s' /\ sv_time s = sv_time s' /\ sv_iter s = sv_iter s' /\ sv_sweep s = sv_sweep s' /\ sv_nr s = sv_nr s'.
Proof. unfold niter_key. intro H. injection H. auto. Qed.

Lemma default_run_keys svs k :
  e_type k = Some "niter"%string -> In k (keys (h_stats (default_run svs))) -> In k (map niter_key svs).
Proof.
  intro Hk. induction svs as [|s svs IH] using rev_ind; [intros []|].
  rewrite default_run_snoc, map_app, in_app_iff. intro Hin.
  destruct (default_post_step_keys _ _ _ Hin Hk) as [->|H]; [right; left; reflexivity|left; auto].
Qed.

(* a step's record is written when the step is processed and, its key being used by no later step, stays *)
Lemma default_run_get svs s :
  NoDup (map niter_key svs) -> In s svs -> dict_get (niter_key s) (h_stats (default_run svs)) = Some (sv_iter s).
Proof.
  induction svs as [|a svs IH] using rev_ind; [intros _ []|].
  rewrite map_app, default_run_snoc, in_app_iff, default_post_step_niter by reflexivity. simpl. intros Hnd Hin.
  apply NoDup_remove in Hnd. rewrite app_nil_r in Hnd. destruct Hnd as [Hnd Ha].
  destruct Hin as [Hin|[->|[]]]; [|rewrite entry_eqb_refl; reflexivity].
  destruct (entry_eqb (niter_key a) (niter_key s)) eqn:E; [|auto].
  apply entry_eqb_spec in E. rewrite E in Ha. destruct (Ha (in_map _ _ _ Hin)).
Qed.

(* every step whose key is not reused contributes exactly one 'niter' record: the 'niter' keys of the stats are
   exactly the step keys (as a set without repetition), each holding the iteration count of its step *)
Theorem one_record_per_step svs :
  NoDup (map niter_key svs) ->
  let stats := h_stats (default_run svs) in
  wf stats /\
  Permutation (keys (filter_plain (kw_type (Some "niter"%string)) stats)) (map niter_key svs) /\
  forall s, In s svs -> In (niter_key s, sv_iter s) stats.
Proof.
  intros Hnd stats. assert (Hwf : wf stats) by apply default_run_wf.
  assert (Hget : forall s, In s svs -> In (niter_key s, sv_iter s) stats).
  { intros s Hs. apply dict_get_in; [exact Hwf|]. apply default_run_get; assumption. }
  split; [exact Hwf|]. split; [|exact Hget].
  apply NoDup_Permutation; [apply wf_filter, Hwf|exact Hnd|].
  intro k. rewrite keys_filter_plain, matches_type, (fmatch_some String.eqb_eq). split.
  - intros [Hin Hk]. apply default_run_keys; assumption.
  - intro Hin. apply in_map_iff in Hin. destruct Hin as (s & <- & Hs).
    split; [exact (in_map fst _ _ (Hget s Hs))|reflexivity].
Qed.

Lemma prepare_snapshot_length flags cnt : List.length (prepare_snapshot flags cnt) = List.length flags.
Proof. unfold prepare_snapshot. rewrite map_length, seq_length. reflexivity. Qed.

(* with one step per block the in-place update of the source and the snapshot update agree *)
Lemma prepare_seq_single b c : prepare_seq [b] [c] = prepare_snapshot [b] [c].
Proof. destruct b; reflexivity. Qed.

(* the reproduced history: 3 steps per block; times scaled to integers; the parameter gives the restart counts of the
   last block: (1, 3, 2) as the source computes them, (3, 3, 0) with the snapshot update *)
Definition sv (slot t dt : Z) (restart : bool) (r : Z) : step_view :=
  SV slot (Some 0) t (t + dt) 0 3 1 restart (Some r) 0.

Definition history (c4 : Z * Z * Z) : list step_view :=
  let '(a, b, c) := c4 in
  [ sv 0 0 20 true 0; sv 1 20 20 true 0; sv 2 40 20 true 0;
    sv 0 0 5 true 1;  sv 1 5 5 true 1;   sv 2 10 5 true 1;
    sv 0 0 3 false 2; sv 1 3 3 true 2;   sv 2 6 3 true 2;
    sv 0 3 2 false a; sv 1 5 2 false b;  sv 2 7 2 false c ].

Definition accepted_keys (svs : list step_view) : list entry :=
  flat_map (fun s => if sv_restart s then [] else
     [niter_key s;
      Entry m1 m1 (Some (sv_time s)) m1 m1 m1 (Some recomputed_tag) (sv_nr s);
      Entry m1 m1 (Some (sv_tend s)) m1 m1 m1 (Some recomputed_tag) (sv_nr s);
      Entry (Some (sv_slot s)) (sv_rank s) (Some (sv_time s)) (Some (sv_level s)) m1 (Some (sv_sweep s)) (Some "residual_post_step"%string) (sv_nr s)]) svs.

Definition kw_niter := kw_tt (Some "niter"%string) None.

(* with the snapshot counters (3/3/0) the validator accepts, hence (check_accepted_sound) the filter returns
   exactly the accepted records: the hypotheses of the theorem are satisfiable on a history with repeated
   restarts of the same step and a restart at a later slot *)
Example check_accepted_instance :
  let svs := history (3, 3, 0) in
  check_accepted (accepted_keys svs) (h_stats (default_run svs)) = true.
Proof. vm_compute. reflexivity. Qed.

Example check_accepted_rejects_aliased :
  let svs := history (1, 3, 2) in
  check_accepted (accepted_keys svs) (h_stats (default_run svs)) = false.
Proof. vm_compute. reflexivity. Qed.

(* get_list_of_types and Controller.add_hook both fold "append x unless it is there" *)
Section AppendNew.
Context {A B : Type} {eqb : A -> A -> bool} (eqb_eq : forall x y, eqb x y = true <-> x = y) (g : B -> A).

Lemma fold_append_new xs l :
  let l' := fold_left (fun acc b => if existsb (eqb (g b)) acc then acc else acc ++ [g b]) xs l in
  (NoDup l -> NoDup l') /\ (forall y, In y l' <-> In y l \/ In y (map g xs)) /\ exists tail, l' = l ++ tail.
Proof.
  revert l. induction xs as [|b xs IH]; intro l; simpl.
  - split; [auto|]. split; [tauto|]. exists []. symmetry. apply app_nil_r.
  - destruct (existsb (eqb (g b)) l) eqn:E.
    + destruct (IH l) as (N & I & T). split; [exact N|]. split; [|exact T].
      apply existsb_exists in E. destruct E as (z & Hz & E). apply eqb_eq in E. subst z.
      intro y. rewrite I. clear - Hz. split; [tauto|]. intros [H|[<-|H]]; auto.
    + destruct (IH (l ++ [g b])) as (N & I & t & T). split; [|split].
      * intro H. apply N, (Permutation_NoDup (Permutation_cons_append l (g b))). constructor; [|exact H].
        intro Hin. apply not_true_iff_false in E. apply E, existsb_exists.
        exists (g b). split; [exact Hin|apply eqb_eq; reflexivity].
      * intro y. rewrite I, in_app_iff. simpl. clear. tauto.
      * exists ([g b] ++ t). rewrite T, <- app_assoc. reflexivity.
Qed.
End AppendNew.

(* the comparators used by generated cases decide Leibniz equality *)
Lemma list_eqb_spec {A} (eqb : A -> A -> bool) :
  (forall x y, eqb x y = true <-> x = y) -> forall a b, list_eqb eqb a b = true <-> a = b.
Proof.
  intro H. induction a as [|x a IH]; destruct b as [|y b]; simpl; try (split; congruence).
  rewrite andb_true_iff, H, IH. split; [intros [-> ->]; reflexivity|intros [= -> ->]; auto].
Qed.

Lemma pair_eqb_spec {A} (eqb : A -> A -> bool) :
  (forall x y, eqb x y = true <-> x = y) ->
  forall x y : A * Z, eqb (fst x) (fst y) && (snd x =? snd y) = true <-> x = y.
Proof.
  intros H [k v] [k' v']. simpl. rewrite andb_true_iff, H, Z.eqb_eq.
  split; [intros [-> ->]; reflexivity|intros [= -> ->]; auto].
Qed.

Lemma dict_eqb_spec a b : dict_eqb a b = true <-> a = b.
Proof. apply list_eqb_spec, pair_eqb_spec, entry_eqb_spec. Qed.

Lemma items_eqb_spec a b : items_eqb a b = true <-> a = b.
Proof. apply list_eqb_spec, pair_eqb_spec, item_eqb_spec. Qed.

Lemma types_eqb_spec a b : types_eqb a b = true <-> a = b.
Proof. apply list_eqb_spec, oeqb_spec, String.eqb_eq. Qed.

Lemma zlist_eqb_spec a b : zlist_eqb a b = true <-> a = b.
Proof. apply list_eqb_spec, Z.eqb_eq. Qed.

Lemma tz_D2Q m e : -1074 <= e -> (D2Q (Dy m e) == inject_Z (tz m e) * 2 ^ (-1074))%Q.
Proof.
  intro H. unfold tz, D2Q. simpl dm. simpl de. rewrite shift_Q by lia.
  replace (-1074 + (e + 1074)) with e by lia. reflexivity.
Qed.

Theorem tz_order m1 e1 m2 e2 : -1074 <= e1 -> -1074 <= e2 ->
  (tz m1 e1 <= tz m2 e2 <-> (D2Q (Dy m1 e1) <= D2Q (Dy m2 e2))%Q).
Proof. intros H1 H2. rewrite !tz_D2Q by assumption. apply inject_Z_le_pow. Qed.

Theorem tz_eq m1 e1 m2 e2 : -1074 <= e1 -> -1074 <= e2 ->
  (tz m1 e1 = tz m2 e2 <-> (D2Q (Dy m1 e1) == D2Q (Dy m2 e2))%Q).
Proof.
  intros H1 H2. split.
  - intro E. rewrite !tz_D2Q by assumption. rewrite E. reflexivity.
  - intro E. apply Z.le_antisymm; apply tz_order; auto; rewrite E; apply Qle_refl.
Qed.
