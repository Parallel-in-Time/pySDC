(* C08 — proofs about the MPI transition system of Model/MPI.v.  A step of rank w appends one event to
   history w, and what a rank reads of another rank's history are entries of lists (the sends and receives on a
   channel, the collective calls) that only grow with that history.  Hence enabled steps of different ranks
   commute ([fire_diamond]); confluence and deadlock freedom follow ([confluence_main]), and an execution
   stays one when the environment buffers more ([steps_eager_mono]).  Then: the checker [replay_from] is sound
   for the rules [legal], an accepted log is an execution of the skeleton programs it projects to,
   and the matching is one to one. *)
From Coq Require Import List Arith Bool ZArith Lia.
From PySDC Require Import Model.MPI.
Import ListNotations.

Set Implicit Arguments.
Unset Strict Implicit.

Lemma upd_length : forall A (l : list A) i x, length (upd l i x) = length l.
Proof. induction l; destruct i; simpl; intros; auto. Qed.

Lemma upd_beyond : forall A (l : list A) i x, length l <= i -> upd l i x = l.
Proof. induction l; destruct i; simpl; intros; auto; try lia. f_equal. apply IHl. lia. Qed.

Lemma nth_error_upd_eq : forall A (l : list A) i x, i < length l -> nth_error (upd l i x) i = Some x.
Proof. induction l; destruct i; simpl; intros; try lia; auto. apply IHl. lia. Qed.

Lemma nth_error_upd_neq : forall A (l : list A) i j x, i <> j -> nth_error (upd l i x) j = nth_error l j.
Proof. induction l; destruct i; destruct j; simpl; intros; auto; try lia. Qed.

Lemma upd_comm : forall A (l : list A) i j a b, i <> j -> upd (upd l i a) j b = upd (upd l j b) i a.
Proof.
  induction l; destruct i; destruct j; simpl; intros; auto; try lia.
  f_equal. apply IHl. lia.
Qed.

Lemma map_upd : forall A B (f : A -> B) (l : list A) i x, map f (upd l i x) = upd (map f l) i (f x).
Proof. induction l; destruct i; simpl; intros; auto. f_equal. auto. Qed.

Lemma Forall_upd : forall A (Q : A -> Prop) l i x, Forall Q l -> Q x -> Forall Q (upd l i x).
Proof.
  induction l; destruct i; simpl; intros; auto; inversion H; subst; constructor; auto.
Qed.

Lemma upd_map_seq : forall A (f g : nat -> A) n a w x, w < n -> g (a + w) = x ->
  (forall i, i <> a + w -> g i = f i) -> upd (map f (seq a n)) w x = map g (seq a n).
Proof.
  induction n; intros a w x Hw Hx Hg; [lia|]. destruct w; simpl.
  - f_equal. { rewrite <- Hx. f_equal. lia. }
    apply map_ext_in. intros i Hi. apply in_seq in Hi. symmetry. apply Hg. lia.
  - f_equal. { symmetry. apply Hg. lia. }
    apply IHn; try lia. { rewrite <- Hx. f_equal. lia. }
    intros i Hi. apply Hg. lia.
Qed.

Lemma hist_of_app_at_eq : forall hs w e, w < length hs -> hist_of (app_at hs w e) w = hist_of hs w ++ [e].
Proof. intros. apply nth_error_nth, nth_error_upd_eq. auto. Qed.

Lemma hist_of_app_at_neq : forall hs w j e, w <> j -> hist_of (app_at hs w e) j = hist_of hs j.
Proof.
  intros. unfold hist_of, app_at. rewrite <- !nth_default_eq. unfold nth_default.
  rewrite nth_error_upd_neq; auto.
Qed.

Lemma app_at_length : forall hs w e, length (app_at hs w e) = length hs.
Proof. intros. apply upd_length. Qed.

Lemma enum_from_app : forall A (l l' : list A) n,
  enum_from n (l ++ l') = enum_from n l ++ enum_from (n + length l) l'.
Proof.
  induction l; simpl; intros.
  - f_equal. lia.
  - f_equal. rewrite IHl. f_equal. f_equal. lia.
Qed.

Lemma in_enum_from : forall A (l : list A) n q e, In (q, e) (enum_from n l) -> n <= q /\ nth_error l (q - n) = Some e.
Proof.
  induction l; simpl; intros n q e H; [contradiction|]. destruct H as [H|H].
  - injection H as <- <-. rewrite Nat.sub_diag. auto.
  - apply IHl in H. destruct H as [Hle Hn]. split; [lia|].
    replace (q - n) with (S (q - S n)) by lia. auto.
Qed.

Lemma filter_map_app : forall A B (f : A -> option B) l l',
  filter_map f (l ++ l') = filter_map f l ++ filter_map f l'.
Proof.
  induction l; simpl; intros; auto. destruct (f a); simpl; rewrite IHl; auto.
Qed.

Lemma in_filter_map : forall A B (f : A -> option B) l y, In y (filter_map f l) -> exists x, In x l /\ f x = Some y.
Proof.
  induction l; simpl; intros y H; [contradiction|].
  destruct (f a) eqn:E.
  - destruct H as [<-|H]; eauto. destruct (IHl _ H) as (x & Hx & Hf). eauto.
  - destruct (IHl _ H) as (x & Hx & Hf). eauto.
Qed.

Lemma index_of_nth_error : forall l x i, index_of x l = Some i -> nth_error l i = Some x.
Proof.
  induction l; simpl; intros x i H; try discriminate.
  destruct (Nat.eqb_spec x a).
  - injection H as <-. subst. auto.
  - destruct (index_of x l) eqn:E; try discriminate. injection H as <-. simpl. auto.
Qed.

Lemma index_of_nth_NoDup : forall l i x, NoDup l -> nth_error l i = Some x -> index_of x l = Some i.
Proof.
  induction l; intros i x Hnd H; destruct i; simpl in *; try discriminate.
  - injection H as <-. rewrite Nat.eqb_refl. auto.
  - inversion Hnd; subst. destruct (Nat.eqb_spec x a).
    + subst. exfalso. apply H2. eapply nth_error_In; eauto.
    + rewrite (IHl _ _ H3 H). auto.
Qed.

(* Histories only grow, and so does everything derived from them. *)
Definition prefix A (l l' : list A) : Prop := exists s, l' = l ++ s.

Lemma nth_error_prefix : forall A (l l' : list A) i x,
  prefix l l' -> nth_error l i = Some x -> nth_error l' i = Some x.
Proof.
  intros A l l' i x [s ->] H. rewrite nth_error_app1; auto. apply nth_error_Some. congruence.
Qed.

(* the sends and the receives on a channel are both a [filter_map] of the requests *)
Lemma chan_prefix : forall B (f : nat * ev -> option B) h h',
  prefix h h' -> prefix (filter_map f (reqs h)) (filter_map f (reqs h')).
Proof.
  intros B f h h' [s ->]. unfold reqs. rewrite filter_app, enum_from_app, filter_map_app. eexists. eauto.
Qed.

Lemma enters_app : forall h s c, enters (h ++ s) c = enters h c ++ enters s c.
Proof. intros. apply filter_map_app. Qed.

Lemma enters_prefix : forall c h h', prefix h h' -> prefix (enters h c) (enters h' c).
Proof. intros c h h' [s ->]. exists (enters s c). apply enters_app. Qed.

(* hs' extends hs: same ranks, every history a prefix of the new one, rank w's own history unchanged *)
Definition ext_but (w : nat) (hs hs' : hists) : Prop :=
  length hs = length hs' /\ hist_of hs' w = hist_of hs w /\
  forall r, prefix (hist_of hs r) (hist_of hs' r).

Lemma ext_but_app_at : forall hs w j e, w <> j -> ext_but w hs (app_at hs j e).
Proof.
  intros hs w j e Hn. split; [|split].
  - symmetry. apply app_at_length.
  - apply hist_of_app_at_neq. auto.
  - intros r. destruct (Nat.eq_dec j r) as [<-|Hr]; [destruct (Nat.lt_ge_cases j (length hs))|].
    + exists [e]. apply hist_of_app_at_eq. auto.
    + exists []. unfold app_at. rewrite upd_beyond, app_nil_r; auto.
    + exists []. rewrite app_nil_r. apply hist_of_app_at_neq. auto.
Qed.

Lemma ext_but_refl : forall w hs, ext_but w hs hs.
Proof. intros. split; [|split]; auto. intros r. exists []. symmetry. apply app_nil_r. Qed.

Definition eager_le (e e' : nat -> nat -> bool) : Prop := forall w q, e w q = true -> e' w q = true.

Lemma eager_le_refl : forall e, eager_le e e.
Proof. intros e w q H. exact H. Qed.

(* What rank w can do, and with what result, is not changed by other ranks appending events, nor by the
   environment buffering more standard sends.  In each proof the two sides differ only in one look-up into
   another rank's history; the scrutinees they share are destructed first, which leaves [X -> X] in the
   branches that are [None]. *)
Section Stability.
  Variable cu : list (list nat).
  Variables (w : nat) (hs hs' : hists) (e e' : nat -> nat -> bool).
  Hypothesis He : ext_but w hs hs'.
  Hypothesis Hle : eager_le e e'.

  Lemma recv_partner_stable : forall q x,
    recv_partner cu hs w q = Some x -> recv_partner cu hs' w q = Some x.
  Proof.
    intros q x. destruct He as (_ & Hown & Hext). unfold recv_partner, chan_sends. rewrite Hown.
    destruct (req_of (hist_of hs w) q) as [[]|]; auto.
    destruct (lrank cu c w) as [me|], (wrank cu c src) as [ws|]; auto.
    destruct (index_of q _) as [i|]; auto.
    destruct (nth_error (filter_map _ (reqs (hist_of hs ws))) i) as [[pq v]|] eqn:E; [|discriminate].
    rewrite (nth_error_prefix (chan_prefix _ (Hext ws)) E). auto.
  Qed.

  Lemma send_partner_stable : forall q x,
    send_partner cu hs w q = Some x -> send_partner cu hs' w q = Some x.
  Proof.
    intros q x. destruct He as (_ & Hown & Hext). unfold send_partner, chan_recvs. rewrite Hown.
    destruct (req_of (hist_of hs w) q) as [[]|]; auto.
    destruct (lrank cu c w) as [me|], (wrank cu c dst) as [wr|]; auto.
    destruct (index_of q _) as [i|]; auto.
    destruct (nth_error (filter_map _ (reqs (hist_of hs wr))) i) as [pq|] eqn:E; [|discriminate].
    rewrite (nth_error_prefix (chan_prefix _ (Hext wr)) E). auto.
  Qed.

  Lemma wait_cand_mono : forall q x, wait_cand cu e hs w q = Some x -> wait_cand cu e' hs' w q = Some x.
  Proof.
    intros q x. destruct He as (_ & Hown & _). unfold wait_cand. rewrite Hown.
    destruct (existsb _ _); auto.
    destruct (req_of (hist_of hs w) q) as [[]|]; auto.
    - (* a send can complete when it is buffered or matched, and stays so *)
      destruct (negb sync && e w q) eqn:B.
      + apply andb_true_iff in B. destruct B as [-> B]. rewrite (Hle B). auto.
      + destruct (send_partner cu hs w q) eqn:E; [|discriminate]. rewrite (send_partner_stable E).
        destruct (negb sync && e' w q); auto.
    - destruct (recv_partner cu hs w q) eqn:E; [|discriminate]. rewrite (recv_partner_stable E). auto.
  Qed.

  Lemma enter_k_stable : forall c k w' x, enter_k hs c k w' = Some x -> enter_k hs' c k w' = Some x.
  Proof. intros c k w' x. apply nth_error_prefix, enters_prefix, He. Qed.

  Lemma gather_all_stable : forall c k mine ms l,
    gather_all hs c k mine ms = Some l -> gather_all hs' c k mine ms = Some l.
  Proof.
    intros c k mine. induction ms as [|w' t IH]; simpl; auto. intros l.
    destruct (enter_k hs c k w') as [y|] eqn:E; [|discriminate]. rewrite (enter_k_stable E).
    destruct (same_call mine y); auto.
    destruct (gather_all hs c k mine t) eqn:G; [|discriminate]. rewrite (IH _ eq_refl). auto.
  Qed.

  Lemma exit_cand_stable : forall c x, exit_cand cu hs w c = Some x -> exit_cand cu hs' w c = Some x.
  Proof.
    intros c x. destruct He as (_ & Hown & _). unfold exit_cand. rewrite Hown.
    set (h := hist_of hs w). set (k := nexits h c).
    destruct (negb (length (enters h c) =? S k)); auto.
    destruct (nth_error (enters h c) k) as [mine|]; auto.
    destruct (lrank cu c w) as [me|]; auto.
    assert (G : forall f : list val -> option val * list val,
              option_map f (gather_all hs c k mine (members cu c)) = Some x ->
              option_map f (gather_all hs' c k mine (members cu c)) = Some x).
    { intros f. destruct (gather_all hs c k mine _) eqn:G; [|discriminate]. rewrite (gather_all_stable G). auto. }
    destruct (class_of (fst (fst mine))), (me =? snd (fst mine)); auto.
    destruct (wrank cu c (snd (fst mine))) as [wroot|]; auto.
    destruct (enter_k hs c k wroot) eqn:E; [|discriminate]. rewrite (enter_k_stable E). auto.
  Qed.
End Stability.

Lemma hist_of_hists_of : forall L (s : state L) w l h, nth_error s w = Some (l, h) -> hist_of (hists_of s) w = h.
Proof. intros. apply nth_error_nth. apply (map_nth_error snd _ _ H). Qed.

Lemma hists_of_upd : forall L (s : state L) w l h l' e,
  nth_error s w = Some (l, h) -> hists_of (upd s w (l', h ++ [e])) = app_at (hists_of s) w e.
Proof.
  intros. unfold hists_of at 1, app_at. rewrite map_upd, (hist_of_hists_of H). auto.
Qed.

Section Confluence.
  Variable cu : list (list nat).
  Context {L : Type}.
  Variable P : prog L.
  (* the class of local states the program stays in: it never offers a Test there *)
  Variable good : L -> Prop.
  Hypothesis good_no_test : forall w l, good l -> forall q k, P w l <> ATest q k.
  Hypothesis good_step : forall eager hs w l tb l' e,
    good l -> react cu eager P hs w l tb = Some (l', e) -> good l'.

  Definition good_state (s : state L) : Prop := Forall (fun x => good (fst x)) s.

  Lemma good_at : forall s w l h, good_state s -> nth_error s w = Some (l, h) -> good l.
  Proof. intros s w l h Hg Hn. apply (proj1 (Forall_forall _ _) Hg (l, h)), (nth_error_In _ _ Hn). Qed.

  (* posts and collective entries read only the number of ranks and the own history; only a Test reads [tb] *)
  Lemma react_mono : forall e e' w hs hs' l tb tb' x,
    ext_but w hs hs' -> eager_le e e' -> good l ->
    react cu e P hs w l tb = Some x -> react cu e' P hs' w l tb' = Some x.
  Proof.
    intros e e' w hs hs' l tb tb' x He Hle Hg. pose proof He as (Hl & Hown & _).
    unfold react, ev_ok. rewrite <- Hl, Hown. destruct (P w l) eqn:EP; auto.
    - destruct (wait_cand cu e hs w q) eqn:E; [|discriminate]. rewrite (wait_cand_mono He Hle E). auto.
    - destruct (good_no_test Hg EP).
    - destruct (exit_cand cu hs w c) eqn:E; [|discriminate]. rewrite (exit_cand_stable He E). auto.
  Qed.

  Lemma fire_inv : forall eager s w tb s', fire cu eager P s w tb = Some s' ->
    exists l h l' e, nth_error s w = Some (l, h) /\
      react cu eager P (hists_of s) w l tb = Some (l', e) /\ s' = upd s w (l', h ++ [e]).
  Proof.
    intros eager s w tb s' H. unfold fire in H.
    destruct (nth_error s w) as [[l h]|] eqn:E; try discriminate.
    destruct (react cu eager P (hists_of s) w l tb) as [[l' e]|] eqn:R; try discriminate.
    injection H as <-. repeat eexists; eauto.
  Qed.

  Lemma fire_intro : forall eager s w tb l h l' e, nth_error s w = Some (l, h) ->
    react cu eager P (hists_of s) w l tb = Some (l', e) -> fire cu eager P s w tb = Some (upd s w (l', h ++ [e])).
  Proof. intros eager s w tb l h l' e Hn Hr. unfold fire. rewrite Hn, Hr. auto. Qed.

  Lemma fire_good : forall eager s w tb s', good_state s -> fire cu eager P s w tb = Some s' -> good_state s'.
  Proof.
    intros eager s w tb s' Hg H. destruct (fire_inv H) as (l & h & l' & e & Hn & Hr & ->).
    apply Forall_upd; auto. apply (good_step (good_at Hg Hn) Hr).
  Qed.

  Lemma fire_det : forall eager s w tb tb' s1 s2, good_state s ->
    fire cu eager P s w tb = Some s1 -> fire cu eager P s w tb' = Some s2 -> s1 = s2.
  Proof.
    intros eager s w tb tb' s1 s2 Hg H1 H2.
    destruct (fire_inv H1) as (l & h & l1 & e1 & Hn & Hr1 & ->).
    destruct (fire_inv H2) as (l' & h' & l2 & e2 & Hn' & Hr2 & ->).
    rewrite Hn in Hn'. injection Hn' as <- <-.
    apply (react_mono tb' (ext_but_refl _ _) (@eager_le_refl eager) (good_at Hg Hn)) in Hr1. congruence.
  Qed.

  (* the diamond: enabled steps of different ranks commute *)
  Lemma fire_diamond : forall eager s i j tbi tbj s1 s2, good_state s -> i <> j ->
    fire cu eager P s i tbi = Some s1 -> fire cu eager P s j tbj = Some s2 ->
    exists s3, fire cu eager P s1 j tbj = Some s3 /\ fire cu eager P s2 i tbi = Some s3.
  Proof.
    intros eager s i j tbi tbj s1 s2 Hg Hij H1 H2.
    destruct (fire_inv H1) as (li & hi & li' & ei & Hni & Hri & ->).
    destruct (fire_inv H2) as (lj & hj & lj' & ej & Hnj & Hrj & ->).
    exists (upd (upd s i (li', hi ++ [ei])) j (lj', hj ++ [ej])). split; [|rewrite upd_comm by auto].
    - eapply fire_intro; [rewrite nth_error_upd_neq by auto; exact Hnj|]. rewrite (hists_of_upd _ _ Hni).
      apply (react_mono tbj (ext_but_app_at _ _ (not_eq_sym Hij)) (@eager_le_refl eager) (good_at Hg Hnj) Hrj).
    - eapply fire_intro; [rewrite nth_error_upd_neq by auto; exact Hni|]. rewrite (hists_of_upd _ _ Hnj).
      apply (react_mono tbi (ext_but_app_at _ _ Hij) (@eager_le_refl eager) (good_at Hg Hni) Hri).
  Qed.

  Lemma steps_good : forall eager n s t, good_state s -> steps cu eager P n s t -> good_state t.
  Proof.
    induction 2; auto. apply IHsteps. destruct H0 as (w & tb & Hf). eapply fire_good; eauto.
  Qed.

  Lemma steps_terminal_O : forall eager n t u, terminal cu eager P t -> steps cu eager P n t u -> n = 0 /\ u = t.
  Proof.
    intros eager n t u Ht H. inversion H; subst; auto.
    destruct H0 as (w & tb & Hf). rewrite Ht in Hf. discriminate.
  Qed.

  Lemma steps_peel : forall eager n s t r' tb' s', good_state s ->
    steps cu eager P n s t -> terminal cu eager P t -> fire cu eager P s r' tb' = Some s' ->
    exists n', n = S n' /\ steps cu eager P n' s' t.
  Proof.
    intros eager. induction n as [|n IH]; intros s t r' tb' s' Hg Hst Ht Hf';
      inversion Hst as [|? ? s1 ? (r & tb & Hf) Hrest]; subst.
    - rewrite Ht in Hf'. discriminate.
    - exists n. split; auto. destruct (Nat.eq_dec r r') as [<-|Hne].
      + rewrite <- (fire_det Hg Hf Hf'). exact Hrest.
      + (* the two steps commute, and the step of r' from s1 is one closer by induction *)
        destruct (fire_diamond Hg Hne Hf Hf') as (s2 & Ha & Hb).
        destruct (IH _ _ _ _ _ (fire_good Hg Hf) Hrest Ht Ha) as (n' & -> & Hs2).
        apply steps_S with s2; [exists r, tb; exact Hb | exact Hs2].
  Qed.

  (* If ONE execution reaches a terminal state t in n steps, then every execution has at most n
     steps and can be completed to t. *)
  Theorem confluence_main : forall eager n s t, good_state s ->
    steps cu eager P n s t -> terminal cu eager P t ->
    forall m u, steps cu eager P m s u -> m <= n /\ steps cu eager P (n - m) u t.
  Proof.
    intros eager n s t Hg Hst Ht m u Hsu. revert n Hg Hst.
    induction Hsu as [s|m s s1 u (r & tb & Hf) Hrest IH]; intros n Hg Hst.
    - split; [lia|]. rewrite Nat.sub_0_r. exact Hst.
    - destruct (steps_peel Hg Hst Ht Hf) as (n' & -> & Hst').
      destruct (IH _ (fire_good Hg Hf) Hst'). split; [lia | auto].
  Qed.

  (* all complete executions end in the same state (local states AND histories of every rank) *)
  Theorem schedule_independent : forall eager s n t m t', good_state s ->
    steps cu eager P n s t -> terminal cu eager P t ->
    steps cu eager P m s t' -> terminal cu eager P t' -> t = t' /\ n = m.
  Proof.
    intros eager s n t m t' Hg H1 Ht H2 Ht'.
    destruct (confluence_main Hg H1 Ht H2) as [Hle Hs].
    destruct (steps_terminal_O Ht' Hs) as [Hz ->].
    destruct (confluence_main Hg H2 Ht' H1) as [Hle' _]. split; auto. lia.
  Qed.

  Definition deadlock eager (u : state L) : Prop := terminal cu eager P u /\ ~ all_done P u.

  (* if one schedule completes (all ranks reach ADone) then no schedule deadlocks, every schedule
     terminates within the same number of steps and can always be completed to the same final state *)
  Theorem one_completes_all_complete : forall eager s n t, good_state s ->
    steps cu eager P n s t -> terminal cu eager P t -> all_done P t ->
    forall m u, steps cu eager P m s u ->
      m <= n /\ steps cu eager P (n - m) u t /\ ~ deadlock eager u.
  Proof.
    intros eager s n t Hg H1 Ht Hd m u H2.
    destruct (confluence_main Hg H1 Ht H2) as [Hle Hs]. repeat split; auto.
    intros [Hu Hnd]. destruct (steps_terminal_O Hu Hs) as [_ ->]. auto.
  Qed.

  Lemma all_done_terminal : forall eager s, all_done P s -> terminal cu eager P s.
  Proof.
    intros eager s Hd w tb. unfold fire. destruct (nth_error s w) as [[l h]|] eqn:E; auto.
    unfold react. rewrite (Hd _ _ _ E). auto.
  Qed.

  Lemma ev_ok_post_eager : forall e e' hs w ev0,
    match ev0 with ESend _ _ _ _ _ | ERecv _ _ _ | EEnter _ _ _ _ => True | _ => False end ->
    ev_ok cu e hs w ev0 = ev_ok cu e' hs w ev0.
  Proof. intros. destruct ev0; try contradiction; auto. Qed.

  Lemma steps_eager_mono : forall e e' n s t, eager_le e e' -> good_state s ->
    steps cu e P n s t -> steps cu e' P n s t.
  Proof.
    intros e e' n s t Hle Hg H. induction H as [|n s s1 t (w & tb & Hf) Hrest IH]; [constructor|].
    apply steps_S with s1; [|exact (IH (fire_good Hg Hf))].
    destruct (fire_inv Hf) as (l & h & l' & ev0 & Hn & Hr & ->).
    exists w, tb. apply (fire_intro Hn (react_mono tb (ext_but_refl _ _) Hle (good_at Hg Hn) Hr)).
  Qed.
End Confluence.

Lemma exec_steps : forall cu eager L (P : prog L) sched s t,
  exec cu eager P s sched = Some t -> steps cu eager P (length sched) s t.
Proof.
  intros cu eager L P. induction sched as [|w rest IH]; simpl; intros s t H.
  - injection H as <-. constructor.
  - destruct (fire cu eager P s w true) as [s'|] eqn:E; try discriminate.
    econstructor; eauto. exists w, true. auto.
Qed.

(* The transition rules, one constructor per kind of action.  Who is matched with whom, and when a collective can
   be left, is not restated: [L_wait_recv], [L_wait_send], [L_exit] use the model's [recv_partner], [send_partner],
   [exit_cand]; [matching_symmetric] and [recv_matched_once] say what these return. *)
Inductive legal (cu : list (list nat)) (eager : nat -> nat -> bool) (hs : hists) (w : nat) : ev -> Prop :=
| L_send : forall sync c dst tag v me wr,
    w < length hs -> lrank cu c w = Some me -> wrank cu c dst = Some wr ->
    legal cu eager hs w (ESend sync c dst tag v)
| L_recv : forall c src tag me ws,
    w < length hs -> lrank cu c w = Some me -> wrank cu c src = Some ws ->
    legal cu eager hs w (ERecv c src tag)
| L_wait_recv : forall q c src tag ws pq v,
    w < length hs -> ~ In q (completed (hist_of hs w)) ->
    req_of (hist_of hs w) q = Some (ERecv c src tag) ->
    recv_partner cu hs w q = Some (ws, pq, v) ->          (* its matching send has been posted: deliver its payload *)
    legal cu eager hs w (EWait q (Some (ws, pq)) v)
| L_wait_send : forall q sync c dst tag v,
    w < length hs -> ~ In q (completed (hist_of hs w)) ->
    req_of (hist_of hs w) q = Some (ESend sync c dst tag v) ->   (* v: the buffer still holds the posted payload *)
    ((sync = false /\ eager w q = true) \/ exists p, send_partner cu hs w q = Some p) ->
    legal cu eager hs w (EWait q None v)
| L_test_ok : forall q p v,
    legal cu eager hs w (EWait q p v) -> legal cu eager hs w (ETest q true p v)
| L_test_fail : forall q p v e0,
    w < length hs -> ~ In q (completed (hist_of hs w)) -> req_of (hist_of hs w) q = Some e0 ->
    legal cu eager hs w (ETest q false p v)
| L_enter : forall c kc root v me,
    w < length hs -> lrank cu c w = Some me -> root < length (members cu c) ->
    length (enters (hist_of hs w) c) = nexits (hist_of hs w) c ->      (* no collective pending on c *)
    legal cu eager hs w (EEnter c kc root v)
| L_exit : forall c vo l,
    w < length hs -> exit_cand cu hs w c = Some (vo, l) ->
    legal cu eager hs w (EExit c vo).

Inductive valid_exec (cu : list (list nat)) (eager : nat -> nat -> bool) : hists -> list (nat * ev) -> Prop :=
| ve_nil : forall hs, valid_exec cu eager hs []
| ve_cons : forall hs w e rest,
    legal cu eager hs w e -> valid_exec cu eager (app_at hs w e) rest -> valid_exec cu eager hs ((w, e) :: rest).

Lemma opt_pair_eqb_eq : forall a b, opt_pair_eqb a b = true -> a = b.
Proof.
  intros [[x y]|] [[x' y']|]; simpl; intros H; try discriminate; auto.
  apply andb_true_iff in H. destruct H as [H1 H2].
  apply Nat.eqb_eq in H1. apply Nat.eqb_eq in H2. congruence.
Qed.

Lemma opt_val_eqb_eq : forall a b, opt_val_eqb a b = true -> a = b.
Proof.
  intros [x|] [y|]; simpl; intros H; try discriminate; auto. apply Z.eqb_eq in H. congruence.
Qed.

Lemma existsb_eqb_false : forall q l, existsb (Nat.eqb q) l = false -> ~ In q l.
Proof.
  intros q l H Hin. rewrite (proj2 (existsb_exists _ _)) in H; [discriminate|].
  exists q. split; auto. apply Nat.eqb_refl.
Qed.

Lemma valid_peer_spec : forall cu c w peer, valid_peer cu c w peer = true ->
  exists me wp, lrank cu c w = Some me /\ wrank cu c peer = Some wp.
Proof.
  intros cu c w peer H. unfold valid_peer in H.
  destruct (lrank cu c w); destruct (wrank cu c peer); try discriminate; eauto.
Qed.

Lemma ev_ok_lt : forall cu eager hs w e, ev_ok cu eager hs w e = true -> w < length hs.
Proof. intros cu eager hs w e H. apply andb_true_iff in H. apply Nat.ltb_lt, H. Qed.

Lemma ev_ok_wait : forall cu eager hs w q p v,
  ev_ok cu eager hs w (EWait q p v) = true -> wait_cand cu eager hs w q = Some (p, v).
Proof.
  intros cu eager hs w q p v H. apply andb_true_iff in H. destruct H as [_ H].
  destruct (wait_cand cu eager hs w q) as [[p' v']|]; [|discriminate].
  apply andb_true_iff in H. destruct H as [Hp Hv]. apply opt_pair_eqb_eq in Hp. apply Z.eqb_eq in Hv.
  subst. auto.
Qed.

Lemma ev_ok_exit : forall cu eager hs w c vo,
  ev_ok cu eager hs w (EExit c vo) = true -> exists l, exit_cand cu hs w c = Some (vo, l).
Proof.
  intros cu eager hs w c vo H. apply andb_true_iff in H. destruct H as [_ H].
  destruct (exit_cand cu hs w c) as [[vo' l]|]; [|discriminate]. apply opt_val_eqb_eq in H. subst. eauto.
Qed.

Lemma wait_cand_legal : forall cu eager hs w q p v, w < length hs ->
  wait_cand cu eager hs w q = Some (p, v) -> legal cu eager hs w (EWait q p v).
Proof.
  intros cu eager hs w q p v Hw H. unfold wait_cand in H.
  destruct (existsb (Nat.eqb q) (completed (hist_of hs w))) eqn:Ec; try discriminate.
  apply existsb_eqb_false in Ec.
  destruct (req_of (hist_of hs w) q) as [[]|] eqn:Er; try discriminate.
  - destruct (negb sync && eager w q) eqn:Ee.
    + injection H as <- <-. eapply L_wait_send; eauto. left. destruct sync; [discriminate | auto].
    + destruct (send_partner cu hs w q) as [pp|] eqn:Es; try discriminate.
      injection H as <- <-. eapply L_wait_send; eauto.
  - destruct (recv_partner cu hs w q) as [[[ws pq] v0]|] eqn:Ep; try discriminate.
    injection H as <- <-. eapply L_wait_recv; eauto.
Qed.

Lemma ev_ok_legal : forall cu eager hs w e, ev_ok cu eager hs w e = true -> legal cu eager hs w e.
Proof.
  intros cu eager hs w e H. pose proof (ev_ok_lt H) as Hw.
  pose proof H as B. apply andb_true_iff in B. destruct B as [_ B]. destruct e as [| | |q []| |].
  1, 2: destruct (valid_peer_spec B) as (me & wp & H1 & H2); econstructor; eauto.
  - apply wait_cand_legal, ev_ok_wait; auto.
  - (* a successful Test is checked exactly like a Wait *)
    apply L_test_ok, wait_cand_legal, ev_ok_wait; auto.
  - destruct (req_of (hist_of hs w) q) eqn:Er; try discriminate.
    apply negb_true_iff in B. apply existsb_eqb_false in B. eapply L_test_fail; eauto.
  - destruct (lrank cu c w) eqn:El; try discriminate.
    apply andb_true_iff in B. destruct B as [Hr Hn].
    apply Nat.ltb_lt in Hr. apply Nat.eqb_eq in Hn. eapply L_enter; eauto.
  - destruct (ev_ok_exit H) as [l Hl]. eapply L_exit; eauto.
Qed.

Theorem replay_from_sound : forall cu eager log hs,
  replay_from cu eager hs log = true -> valid_exec cu eager hs log.
Proof.
  intros cu eager. induction log as [|[w e] rest IH]; simpl; intros hs H.
  - constructor.
  - apply andb_true_iff in H. destruct H as [H1 H2]. constructor; auto. apply ev_ok_legal. auto.
Qed.

Lemma proj_app : forall l l' w, proj (l ++ l') w = proj l w ++ proj l' w.
Proof. intros. apply filter_map_app. Qed.

Lemma proj_cons_eq : forall w e rest, proj ((w, e) :: rest) w = e :: proj rest w.
Proof. intros. unfold proj. simpl. rewrite Nat.eqb_refl. auto. Qed.

Lemma proj_cons_neq : forall w w' e rest, w <> w' -> proj ((w, e) :: rest) w' = proj rest w'.
Proof. intros. unfold proj. simpl. destruct (Nat.eqb_spec w w'); try contradiction. auto. Qed.

Definition skel_state (n : nat) (pre post : list (nat * ev)) : state (list ev) :=
  map (fun w => (proj post w, proj pre w)) (seq 0 n).

Lemma hists_of_skel_state : forall n pre post, hists_of (skel_state n pre post) = map (proj pre) (seq 0 n).
Proof. intros. apply map_map. Qed.

Lemma skel_state_nth : forall n pre post w, w < n ->
  nth_error (skel_state n pre post) w = Some (proj post w, proj pre w).
Proof.
  intros n pre post w Hw. apply (map_nth_error (fun w => (proj post w, proj pre w))).
  rewrite (nth_error_nth' _ 0), seq_nth by (rewrite ?seq_length; auto). auto.
Qed.

Lemma skel_state_step : forall n pre w e rest, w < n ->
  upd (skel_state n pre ((w, e) :: rest)) w (proj rest w, proj pre w ++ [e]) = skel_state n (pre ++ [(w, e)]) rest.
Proof.
  intros. apply upd_map_seq; auto; simpl.
  - rewrite proj_app, proj_cons_eq. auto.
  - intros i Hi. rewrite proj_app, !proj_cons_neq by auto. f_equal. apply app_nil_r.
Qed.

Lemma skel_hists_step : forall n pre w e, w < n ->
  app_at (map (proj pre) (seq 0 n)) w e = map (proj (pre ++ [(w, e)])) (seq 0 n).
Proof.
  intros n pre w e Hw.
  rewrite <- (hists_of_skel_state n pre [(w, e)]), <- (hists_of_skel_state n _ []), <- skel_state_step by auto.
  symmetry. eapply hists_of_upd, skel_state_nth, Hw.
Qed.

Definition no_test (l : list ev) : Prop := forallb (fun e => negb (is_test e)) l = true.

Lemma skel_react : forall cu eager hs w e t tb,
  ev_ok cu eager hs w e = true -> is_test e = false ->
  react cu eager skel_prog hs w (e :: t) tb = Some (t, e).
Proof.
  intros cu eager hs w e t tb H Ht.
  unfold react, skel_prog. destruct e; try discriminate; try (rewrite H; reflexivity).
  - rewrite (ev_ok_wait H). auto.
  - destruct (ev_ok_exit H) as [l ->]. auto.
Qed.

Lemma skel_good_no_test : forall w l, no_test l -> forall q k, skel_prog w l <> ATest q k.
Proof.
  intros w l H q k. unfold skel_prog. destruct l as [|[] t]; try discriminate.
Qed.

Lemma skel_good_step : forall cu eager hs w l tb l' e,
  no_test l -> react cu eager skel_prog hs w l tb = Some (l', e) -> no_test l'.
Proof.
  intros cu eager hs w l tb l' e Hg H. unfold react, skel_prog in H.
  destruct l as [|e0 t]; try discriminate.
  apply andb_true_iff in Hg. destruct Hg as [He0 Ht]. destruct e0; try discriminate.
  1, 2, 4: destruct (ev_ok _ _ _ _ _); [injection H as <- _; auto | discriminate].
  - destruct (wait_cand _ _ _ _ _) as [[]|]; [injection H as <- _; auto | discriminate].
  - destruct (exit_cand _ _ _ _) as [[]|]; [injection H as <- _; auto | discriminate].
Qed.

Lemma replay_exec : forall cu eager n post pre,
  replay_from cu eager (map (proj pre) (seq 0 n)) post = true -> skeleton_ok post = true ->
  exec cu eager skel_prog (skel_state n pre post) (map fst post) = Some (skel_state n (pre ++ post) []).
Proof.
  intros cu eager n. induction post as [|[w e] rest IH]; intros pre Hr Hs; simpl.
  - rewrite app_nil_r. auto.
  - simpl in Hr, Hs. apply andb_true_iff in Hr. destruct Hr as [Hok Hr].
    apply andb_true_iff in Hs. destruct Hs as [Hte Hs]. apply negb_true_iff in Hte.
    assert (Hw : w < n).
    { apply ev_ok_lt in Hok. rewrite map_length, seq_length in Hok. auto. }
    erewrite fire_intro;
      [ | rewrite skel_state_nth, proj_cons_eq by auto; reflexivity
        | rewrite hists_of_skel_state; apply skel_react; auto ].
    rewrite skel_state_step by auto. rewrite skel_hists_step in Hr by auto.
    replace (pre ++ (w, e) :: rest) with ((pre ++ [(w, e)]) ++ rest) by (rewrite <- app_assoc; auto).
    apply IH; auto.
Qed.

Lemma init_hists_proj : forall n, init_hists n = map (proj []) (seq 0 n).
Proof.
  intros n. unfold init_hists. generalize 0. induction n; simpl; intros; auto. f_equal. auto.
Qed.

Lemma proj_no_test : forall log w, skeleton_ok log = true -> no_test (proj log w).
Proof.
  induction log as [|[w' e] rest IH]; intros w H; simpl in *.
  - reflexivity.
  - apply andb_true_iff in H. destruct H as [H1 H2]. unfold proj. simpl.
    destruct (w' =? w); [|apply IH; auto].
    unfold no_test. simpl. rewrite H1. apply IH. auto.
Qed.

Lemma skel_init_state : forall n log, skel_init n log = skel_state n [] log.
Proof. reflexivity. Qed.

Lemma skel_good_init : forall n log, skeleton_ok log = true ->
  Forall (fun x : list ev * list ev => no_test (fst x)) (skel_init n log).
Proof.
  intros. unfold skel_init. apply Forall_forall. intros x Hx. apply in_map_iff in Hx.
  destruct Hx as (w & <- & _). simpl. apply proj_no_test. auto.
Qed.

Definition skel_final (n : nat) (log : list (nat * ev)) : state (list ev) := skel_state n log [].

Lemma skel_final_done : forall n log, all_done skel_prog (skel_final n log).
Proof.
  intros n log w l h H. apply nth_error_In, in_map_iff in H. destruct H as (i & [= <- _] & _). reflexivity.
Qed.

(* An accepted, Test-free log IS a complete execution of the skeleton programs (the per-rank projections of
   the log): it ends with every rank done and every history equal to that rank's projection. *)
Theorem accepted_log_is_execution : forall cu eg n log,
  replay cu eg n log = true -> skeleton_ok log = true ->
  steps cu (eager_of eg) skel_prog (length log) (skel_init n log) (skel_final n log) /\
  all_done skel_prog (skel_final n log) /\
  hists_of (skel_final n log) = map (proj log) (seq 0 n).
Proof.
  intros cu eg n log Hr Hs. split; [|split].
  - unfold replay in Hr. rewrite init_hists_proj in Hr.
    rewrite skel_init_state, <- (map_length fst log). apply exec_steps, (replay_exec Hr Hs).
  - apply skel_final_done.
  - apply hists_of_skel_state.
Qed.

(* Hence, by confluence: under the buffering behaviour of the logged run (and under any behaviour that
   buffers at least as much) EVERY schedule of the skeleton terminates, within the same number of
   steps, never deadlocks, and can only end in the state the log ended in — same events, same
   matching, same delivered payloads on every rank. *)
Theorem skeleton_schedule_independent : forall cu eg n log,
  replay cu eg n log = true -> skeleton_ok log = true ->
  forall e, eager_le (eager_of eg) e ->
  forall m u, steps cu e skel_prog m (skel_init n log) u ->
    m <= length log /\ steps cu e skel_prog (length log - m) u (skel_final n log) /\
    ~ deadlock cu skel_prog e u /\
    (terminal cu e skel_prog u -> u = skel_final n log).
Proof.
  intros cu eg n log Hr Hs e Hle m u Hu.
  destruct (accepted_log_is_execution Hr Hs) as (Hex & Hd & _).
  pose proof (skel_good_init n Hs) as Hg.
  apply (steps_eager_mono skel_good_no_test (@skel_good_step cu) Hle Hg) in Hex.
  destruct (one_completes_all_complete skel_good_no_test (@skel_good_step cu) Hg Hex
              (all_done_terminal cu e Hd) Hd Hu) as (H1 & H2 & H3).
  repeat split; auto.
  intros Ht. destruct (steps_terminal_O Ht H2) as [_ ->]. auto.
Qed.

(* a send listed on a channel is a request of that history with exactly that channel and payload *)
Lemma chan_sends_req : forall h c d t i pq v, nth_error (chan_sends h c d t) i = Some (pq, v) ->
  exists sync, req_of h pq = Some (ESend sync c d t v).
Proof.
  intros h c d t i pq v H. apply nth_error_In in H. unfold chan_sends in H.
  apply in_filter_map in H. destruct H as ([q e] & Hin & Hf). simpl in Hf.
  unfold reqs in Hin. apply in_enum_from in Hin. destruct Hin as [_ Hn]. rewrite Nat.sub_0_r in Hn.
  destruct e; try discriminate.
  destruct (Nat.eqb_spec c0 c); simpl in Hf; try discriminate.
  destruct (Nat.eqb_spec dst d); simpl in Hf; try discriminate.
  destruct (Nat.eqb_spec tag t); simpl in Hf; try discriminate.
  injection Hf as <- <-. subst. exists sync. auto.
Qed.

(* request numbers listed on a channel are strictly increasing, hence pairwise distinct *)
Lemma filter_map_enum_sorted : forall A B (f : nat * A -> option (nat * B)),
  (forall q a q' b, f (q, a) = Some (q', b) -> q' = q) ->
  forall l n, (forall x, In x (map fst (filter_map f (enum_from n l))) -> n <= x) /\
              NoDup (map fst (filter_map f (enum_from n l))).
Proof.
  intros A B f Hf. induction l; simpl; intros n.
  - split; [intros x []|constructor].
  - destruct (IHl (S n)) as [Hge Hnd]. destruct (f (n, a)) as [[q' b]|] eqn:E.
    + apply Hf in E. subst q'. simpl. split.
      * intros x [<-|Hx]; auto. apply Hge in Hx. lia.
      * constructor; auto. intros Hin. apply Hge in Hin. lia.
    + split; auto. intros x Hx. apply Hge in Hx. lia.
Qed.

Lemma chan_sends_nodup : forall h c d t, NoDup (map fst (chan_sends h c d t)).
Proof.
  intros. unfold chan_sends, reqs. apply filter_map_enum_sorted.
  intros q a q' b H. simpl in H. destruct a; try discriminate.
  destruct (Nat.eqb c0 c && Nat.eqb dst d && Nat.eqb tag t); try discriminate. injection H as <- _. auto.
Qed.

Lemma recv_partner_inv : forall cu hs w q ws pq v, recv_partner cu hs w q = Some (ws, pq, v) ->
  exists c src tag me i,
    req_of (hist_of hs w) q = Some (ERecv c src tag) /\ lrank cu c w = Some me /\ wrank cu c src = Some ws /\
    index_of q (chan_recvs (hist_of hs w) c src tag) = Some i /\
    nth_error (chan_sends (hist_of hs ws) c me tag) i = Some (pq, v).
Proof.
  intros cu hs w q ws pq v H. unfold recv_partner in H.
  destruct (req_of (hist_of hs w) q) as [[]|] eqn:Er; try discriminate.
  destruct (lrank cu c w) as [me|] eqn:El; try discriminate.
  destruct (wrank cu c src) as [ws'|] eqn:Ew; try discriminate.
  destruct (index_of q _) as [i|] eqn:Ei; try discriminate.
  destruct (nth_error _ i) as [[pq' v']|] eqn:En; try discriminate.
  injection H as <- <- <-. exists c, src, tag, me, i. auto.
Qed.

(* the two sides of the matching agree: the send that a receive is matched with is matched with that receive
   (so a synchronous send waits exactly for the receive that will take its payload) *)
Theorem matching_symmetric : forall cu hs w q ws pq v,
  (forall c, NoDup (members cu c)) ->
  recv_partner cu hs w q = Some (ws, pq, v) -> send_partner cu hs ws pq = Some (w, q).
Proof.
  intros cu hs w q ws pq v Hcu H.
  destruct (recv_partner_inv H) as (c & src & tag & me & i & Hr & Hl & Hw & Hi & Hn).
  destruct (chan_sends_req Hn) as [sync Hs].
  unfold send_partner. rewrite Hs.
  rewrite (index_of_nth_NoDup (Hcu c) Hw : lrank cu c ws = Some src).
  rewrite (index_of_nth_error Hl : wrank cu c me = Some w).
  rewrite (index_of_nth_NoDup (chan_sends_nodup _ _ _ _) (map_nth_error fst _ _ Hn) : index_of pq _ = _).
  rewrite (index_of_nth_error Hi). auto.
Qed.

(* The matching of the model: the partner of a receive is a send request of the named source, on the
   communicator and with the tag the receive names, addressed to the receiver, carrying the delivered payload;
   and no other receive (of any rank) is matched with that send, since that send is matched with this one.
   (Matching is a function by construction: [recv_partner] returns at most one send.) *)
Theorem recv_matched_once : forall cu hs w q ws pq v,
  (forall c, NoDup (members cu c)) ->
  recv_partner cu hs w q = Some (ws, pq, v) ->
  (exists sync c src tag me,
      req_of (hist_of hs w) q = Some (ERecv c src tag) /\
      wrank cu c src = Some ws /\ lrank cu c w = Some me /\
      req_of (hist_of hs ws) pq = Some (ESend sync c me tag v)) /\
  (forall w' q' v', recv_partner cu hs w' q' = Some (ws, pq, v') -> w' = w /\ q' = q).
Proof.
  intros cu hs w q ws pq v Hcu H. split.
  - destruct (recv_partner_inv H) as (c & src & tag & me & i & Hr & Hl & Hw & _ & Hn).
    destruct (chan_sends_req Hn) as [sync Hs]. exists sync, c, src, tag, me. auto.
  - intros w' q' v' H'. apply (matching_symmetric Hcu) in H, H'.
    rewrite H in H'. injection H' as <- <-. auto.
Qed.

(* two ranks exchanging a message with Issend/Irecv/Wait and meeting in a barrier: complete under the
   all-rendezvous behaviour, accepted by the checker, premises hold *)
Definition ex_cu : list (list nat) := [[0; 1]].
Definition ex_log : list (nat * ev) :=
  [ (0, ESend true 0 1 7 42%Z); (1, ERecv 0 0 7); (1, EWait 0 (Some (0, 0)) 42%Z); (0, EWait 0 None 42%Z);
    (0, EEnter 0 0 0 0%Z); (1, EEnter 0 0 0 0%Z); (1, EExit 0 None); (0, EExit 0 None) ].

Example ex_log_accepted : replay ex_cu [] 2 ex_log = true /\ skeleton_ok ex_log = true.
Proof. vm_compute. auto. Qed.

(* the receiver cannot complete before the send is posted, the synchronous sender not before the receive is *)
Example ex_recv_needs_send : replay ex_cu [] 2 [(1, ERecv 0 0 7); (1, EWait 0 (Some (0, 0)) 42%Z)] = false.
Proof. vm_compute. auto. Qed.
Example ex_ssend_needs_recv : replay ex_cu [] 2 [(0, ESend true 0 1 7 42%Z); (0, EWait 0 None 42%Z)] = false.
Proof. vm_compute. auto. Qed.
(* ... a buffered standard send may; a modified send buffer is rejected; so is a wrong payload or partner *)
Example ex_eager_send_completes : replay ex_cu [(0, 0)] 2 [(0, ESend false 0 1 7 42%Z); (0, EWait 0 None 42%Z)] = true.
Proof. vm_compute. auto. Qed.
Example ex_modified_buffer_rejected : replay ex_cu [(0, 0)] 2 [(0, ESend false 0 1 7 42%Z); (0, EWait 0 None 43%Z)] = false.
Proof. vm_compute. auto. Qed.
Example ex_wrong_payload_rejected :
  replay ex_cu [] 2 [(0, ESend true 0 1 7 42%Z); (1, ERecv 0 0 7); (1, EWait 0 (Some (0, 0)) 41%Z)] = false.
Proof. vm_compute. auto. Qed.
(* non-overtaking: the second receive on a channel cannot take the first message *)
Example ex_overtaking_rejected :
  replay ex_cu [] 2 [(0, ESend true 0 1 7 1%Z); (0, ESend true 0 1 7 2%Z); (1, ERecv 0 0 7); (1, ERecv 0 0 7);
                     (1, EWait 1 (Some (0, 0)) 1%Z)] = false.
Proof. vm_compute. auto. Qed.
(* a barrier cannot be left before everybody entered; a Bcast root can, a non-root cannot before the root *)
Example ex_barrier_needs_all : replay ex_cu [] 2 [(0, EEnter 0 0 0 0%Z); (0, EExit 0 None)] = false.
Proof. vm_compute. auto. Qed.
Example ex_bcast_root_leaves : replay ex_cu [] 2 [(0, EEnter 0 2 0 5%Z); (0, EExit 0 (Some 5%Z))] = true.
Proof. vm_compute. auto. Qed.
Example ex_bcast_nonroot_waits : replay ex_cu [] 2 [(1, EEnter 0 2 0 0%Z); (1, EExit 0 (Some 5%Z))] = false.
Proof. vm_compute. auto. Qed.
(* mismatching collectives (Bcast vs Barrier) block *)
Example ex_collective_mismatch : replay ex_cu [] 2 [(0, EEnter 0 2 0 5%Z); (1, EEnter 0 0 0 0%Z); (1, EExit 0 None)] = false.
Proof. vm_compute. auto. Qed.

(* Necessity of "no Test result is branched on": rank 0 polls once with Test and then does nothing; rank 1
   posts the matching receive.  Both orders are executions, both final states are terminal, they differ. *)
Definition test_prog : prog nat :=
  fun w l =>
    match w, l with
    | 0, 0 => ASend true 0 1 7 42%Z 1
    | 0, 1 => ATest 0 (fun r => match r with Some _ => 3 | None => 2 end)
    | 1, 0 => ARecv 0 0 7 1
    | _, _ => ADone
    end.

Example test_breaks_confluence :
  exists s0 t t',
    steps ex_cu (fun _ _ => false) test_prog 3 s0 t /\ terminal ex_cu (fun _ _ => false) test_prog t /\
    steps ex_cu (fun _ _ => false) test_prog 3 s0 t' /\ terminal ex_cu (fun _ _ => false) test_prog t' /\
    t <> t'.
Proof.
  (* rank 0 past its Test and rank 1 past its receive are done *)
  assert (T : forall a b h h', terminal ex_cu (fun _ _ => false) test_prog [(S (S a), h); (S b, h')]).
  { intros. apply all_done_terminal. intros [|[|[|w]]] l k Hn; inversion Hn; reflexivity. }
  (* schedule 0,0,1: the Test fails;  schedule 0,1,0: it succeeds *)
  exists [(0, []); (0, [])]. do 2 eexists.
  split. { apply (exec_steps (sched := [0; 0; 1])). lazy. reflexivity. }
  split. { apply T. }
  split. { apply (exec_steps (sched := [0; 1; 0])). lazy. reflexivity. }
  split. { apply T. }
  discriminate.
Qed.
