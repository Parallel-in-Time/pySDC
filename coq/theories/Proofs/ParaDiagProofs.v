(* C15 — ParaDiag: proofs about Model/ParaDiag.v.

   Section Theory is about every field (field_theory over Leibniz equality) and every block size N > 0.  The
   weighted transforms are inverse to each other and diagonalise the alpha-circulant E_alpha, with the factors
   get_G_inv_matrix computes; QDiagonalization.update_nodes solves its local system in one sweep; hence the
   increment of one ParaDiag iteration solves the alpha-circulant all-at-once system exactly, a zero increment
   means the sequential collocation recurrences hold, and one iteration maps the error e to e' with
   C_alpha e' = (C_alpha - C_0) e.  After the section: the Gaussian rationals are a field, and all hypotheses
   are met on executable instances. *)
From Coq Require Import Arith Bool List Lia Field Ring QArith Qcanon Lqa.
From PySDC Require Import Model.ParaDiag.
Import ListNotations.

Section Theory.
Variable F : Type.
Variables (f0 f1 : F) (fadd fmul fsub : F -> F -> F) (fopp : F -> F) (fdiv : F -> F -> F) (finv : F -> F).
Hypothesis Fth : field_theory f0 f1 fadd fmul fsub fopp fdiv finv (@eq F).
Add Field Ffield : Fth.

Notation "0" := f0. Notation "1" := f1.
Infix "+" := fadd. Infix "*" := fmul. Infix "-" := fsub. Infix "/" := fdiv.
Notation "- x" := (fopp x).
Notation sum := (sumn F f0 fadd).
Notation "x ^ n" := (fpow F f1 fmul x n).
Notation dl := (delta F f0 f1).
Notation mm := (mmul F f0 fadd fmul).

Lemma sum_ext n f g : (forall k, (k < n)%nat -> f k = g k) -> sum n f = sum n g.
Proof. induction n; simpl; intros H; [reflexivity|]. rewrite IHn, H by (intros; auto with arith). reflexivity. Qed.

Lemma sum_zero n : sum n (fun _ => 0) = 0.
Proof. induction n; simpl; [reflexivity|]. rewrite IHn. ring. Qed.

Lemma sum_null n f : (forall k, (k < n)%nat -> f k = 0) -> sum n f = 0.
Proof. intros H. rewrite (sum_ext n f (fun _ => 0)) by exact H. apply sum_zero. Qed.

Lemma sum_add n f g : sum n (fun k => f k + g k) = sum n f + sum n g.
Proof. induction n; simpl; [ring|]. rewrite IHn. ring. Qed.

Lemma sum_sub n f g : sum n (fun k => f k - g k) = sum n f - sum n g.
Proof. induction n; simpl; [ring|]. rewrite IHn. ring. Qed.

Lemma sum_scal n c f : sum n (fun k => c * f k) = c * sum n f.
Proof. induction n; simpl; [ring|]. rewrite IHn. ring. Qed.

Lemma sum_scal_r n c f : sum n (fun k => f k * c) = sum n f * c.
Proof. induction n; simpl; [ring|]. rewrite IHn. ring. Qed.

Lemma sum_swap n m (f : nat -> nat -> F) :
  sum n (fun i => sum m (fun j => f i j)) = sum m (fun j => sum n (fun i => f i j)).
Proof.
  induction n; simpl.
  - symmetry. apply sum_zero.
  - rewrite IHn. rewrite <- sum_add. reflexivity.
Qed.

Lemma sum_comb n m (a b : nat -> F) (t : nat -> nat -> F) :
  sum n (fun j => a j * sum m (fun k => b k * t j k)) = sum m (fun k => b k * sum n (fun j => a j * t j k)).
Proof.
  rewrite (sum_ext n _ (fun j => sum m (fun k => b k * (a j * t j k)))).
  - rewrite sum_swap. apply sum_ext. intros k _. apply sum_scal.
  - intros j _. rewrite <- sum_scal. apply sum_ext. intros; ring.
Qed.

Lemma sum_single n j f : (j < n)%nat -> (forall k, (k < n)%nat -> k <> j -> f k = 0) -> sum n f = f j.
Proof.
  induction n; intros Hj H; [lia|]. simpl.
  destruct (Nat.eq_dec j n) as [->|Hne].
  - rewrite sum_null by (intros; apply H; lia). ring.
  - rewrite IHn by (try lia; intros; apply H; lia). rewrite (H n) by lia. ring.
Qed.

Lemma pow_add x a b : x ^ (a + b) = x ^ a * x ^ b.
Proof. induction a; simpl; [ring|]. rewrite IHa. ring. Qed.

Lemma pow_mul x a b : x ^ (a * b) = (x ^ a) ^ b.
Proof.
  induction b; simpl. { rewrite Nat.mul_0_r. reflexivity. }
  rewrite Nat.mul_succ_r, pow_add, IHb. ring.
Qed.

Lemma pow_one n : 1 ^ n = 1.
Proof. induction n; simpl; [reflexivity|]. rewrite IHn. ring. Qed.

Lemma pow_mul_distr x y n : (x * y) ^ n = x ^ n * y ^ n.
Proof. induction n; simpl; [ring|]. rewrite IHn. ring. Qed.

Lemma mul_eq0_r a b : a * b = 0 -> a <> 0 -> b = 0.
Proof. intros H Ha. assert (b = (1 / a) * (a * b)) as -> by (field; exact Ha). rewrite H. ring. Qed.

Lemma sub_zero_eq a b : a + - b = 0 -> b = a.
Proof. intros H. transitivity (a - (a + - b)); [ring|rewrite H; ring]. Qed.

Lemma cancel_factor k r a x y : k <> 0 -> k * x = a * y -> k * r = a -> x = r * y.
Proof.
  intros Hk Hx Hr. transitivity ((k * x) / k); [field; exact Hk|]. rewrite Hx, <- Hr. field. exact Hk.
Qed.

Lemma geom x n : (x - 1) * sum n (fun k => x ^ k) = x ^ n - 1.
Proof.
  induction n; simpl; [ring|].
  transitivity ((x - 1) * sum n (fun k => x ^ k) + (x - 1) * x ^ n); [ring|]. rewrite IHn. ring.
Qed.

Lemma root_sum x n : x ^ n = 1 -> x <> 1 -> sum n (fun k => x ^ k) = 0.
Proof.
  intros Hn Hx. apply (mul_eq0_r (x - 1)).
  - rewrite geom, Hn. ring.
  - intros E. apply Hx. assert (x = (x - 1) + 1) as -> by ring. rewrite E. ring.
Qed.

Lemma inv_pair_pow x y k : x * y = 1 -> x ^ k * y ^ k = 1.
Proof. intros H. rewrite <- pow_mul_distr, H. apply pow_one. Qed.

Lemma nonzero_of_inv x y : x * y = 1 -> y <> 0.
Proof. intros H E. rewrite E in H. apply (F_1_neq_0 Fth). rewrite <- H. ring. Qed.

Lemma div_of_inv x y : x * y = 1 -> 1 / y = x.
Proof.
  intros H. assert (Hnz := nonzero_of_inv x y H).
  assert (x = (x * y) / y) as -> by (field; exact Hnz). rewrite H. reflexivity.
Qed.

Lemma ortho_lt x y n j l : x * y = 1 -> x ^ n = 1 -> x ^ (j - l) <> 1 -> (l < j)%nat ->
  sum n (fun k => x ^ (j * k) * y ^ (l * k)) = 0.
Proof.
  intros Hxy Hn Hp Hlt. rewrite (sum_ext n _ (fun k => (x ^ (j - l)) ^ k)).
  - apply root_sum; [|exact Hp]. rewrite <- pow_mul, Nat.mul_comm, pow_mul, Hn. apply pow_one.
  - intros k _. replace (j * k)%nat with ((j - l) * k + l * k)%nat by nia.
    rewrite pow_add, <- pow_mul. ring [(inv_pair_pow x y (l * k) Hxy)].
Qed.

Lemma mm_ext n A B A' B' i j :
  (forall k, (k < n)%nat -> A i k = A' i k) -> (forall k, (k < n)%nat -> B k j = B' k j) ->
  mm n A B i j = mm n A' B' i j.
Proof. intros HA HB. unfold mmul. apply sum_ext. intros k Hk. rewrite HA, HB by exact Hk. reflexivity. Qed.

Lemma mm_assoc n A B C i j : mm n (mm n A B) C i j = mm n A (mm n B C) i j.
Proof.
  unfold mmul.
  rewrite (sum_ext n _ (fun k => sum n (fun k0 => A i k0 * B k0 k * C k j)))
    by (intros; rewrite <- sum_scal_r; reflexivity).
  rewrite sum_swap. apply sum_ext. intros k Hk. rewrite <- sum_scal. apply sum_ext. intros; ring.
Qed.

Lemma sum_delta_l n i f : (i < n)%nat -> sum n (fun k => dl i k * f k) = f i.
Proof.
  intros Hi. rewrite (sum_single n i) by (try assumption; intros k Hk Hne; unfold delta;
    destruct (Nat.eqb_spec i k); try congruence; ring).
  unfold delta. rewrite Nat.eqb_refl. ring.
Qed.

Lemma sum_delta_r n j f : (j < n)%nat -> sum n (fun k => f k * dl k j) = f j.
Proof.
  intros Hj. rewrite <- (sum_delta_l n j f Hj). apply sum_ext. intros k _.
  unfold delta. rewrite Nat.eqb_sym. ring.
Qed.

(* row l of E_alpha applied to a vector: the alpha-weighted wrap-around in row 0, the predecessor below *)
Lemma E_row N alpha (f : nat -> F) l : (l < N)%nat ->
  sum N (fun l' => E_mat F f0 f1 fopp N alpha l l' * f l') =
  match l with O => - (alpha * f (pred N)) | S p => - f p end.
Proof.
  intros Hl. destruct l as [|p].
  - rewrite (sum_single N (pred N)) by (try lia; intros k Hk Hne; unfold E_mat;
      destruct (Nat.eqb_spec (S k) N); try lia; simpl; ring).
    unfold E_mat. destruct (Nat.eqb_spec (S (pred N)) N); [simpl; ring|lia].
  - rewrite (sum_single N p) by (try lia; intros k Hk Hne; unfold E_mat; simpl;
      destruct (Nat.eqb_spec p k); try congruence; ring).
    unfold E_mat. simpl. rewrite Nat.eqb_refl. ring.
Qed.

Notation Hm := (H_mat F f0 f1).
Notation Gm := (G_mat F f0 f1 fadd fmul).
Notation Gi := (G_inv_cf F f0 f1 fadd fmul fsub fdiv).
Notation mv := (mat_vec F f0 fadd fmul).
Notation appA := (apply_A F f0 fadd fmul).
Notation apm := (apply_matrix F f0 fadd fmul).

Lemma H_is_delta M i j : Hm M i j = dl (S j) M.
Proof. reflexivity. Qed.

Lemma sum_lastcol M (f : nat -> F) : (0 < M)%nat -> sum M (fun k => dl (S k) M * f k) = f (pred M).
Proof.
  intros HM. rewrite (sum_single M (pred M)).
  - unfold delta. destruct (Nat.eqb_spec (S (pred M)) M); [ring|lia].
  - lia.
  - intros k Hk Hne. unfold delta. destruct (Nat.eqb_spec (S k) M); [lia|ring].
Qed.

Lemma delta_pred M j : (0 < M)%nat -> dl (pred M) j = dl (S j) M.
Proof. intros HM. unfold delta. destruct (Nat.eqb_spec (pred M) j), (Nat.eqb_spec (S j) M); try reflexivity; lia. Qed.

Lemma mv_H M x m i : (0 < M)%nat -> mv M (Hm M) x m i = x (pred M) i.
Proof. intros HM. unfold mat_vec, H_mat. apply (sum_lastcol M (fun j => x j i) HM). Qed.

(* G_inv_cf is the inverse of G = d H + I on both sides: in either product the sum over k splits into the last
   column (through H) and the diagonal (through I) *)
Lemma G_inverse M d i j : (0 < M)%nat -> 1 + d <> 0 -> (i < M)%nat -> (j < M)%nat ->
  mm M (Gm M d) (Gi M d) i j = dl i j /\ mm M (Gi M d) (Gm M d) i j = dl i j.
Proof.
  intros HM Hd Hi Hj. unfold mmul, G_mat, G_inv_cf, H_mat. split.
  - rewrite (sum_ext M _ (fun k => dl (S k) M * (d * (dl k j - d / (1 + d) * dl (S j) M))
                                   + dl i k * (dl k j - d / (1 + d) * dl (S j) M)))
      by (intros; unfold delta; ring).
    rewrite sum_add, sum_lastcol, sum_delta_l, delta_pred by assumption.
    unfold delta. destruct (Nat.eqb (S j) M), (Nat.eqb i j); field; exact Hd.
  - rewrite (sum_ext M _ (fun k => dl (S k) M * (- (d / (1 + d)) * (d * dl (S j) M + dl k j))
                                   + dl i k * (d * dl (S j) M + dl k j)))
      by (intros; unfold delta; ring).
    rewrite sum_add, sum_lastcol, sum_delta_l, delta_pred by assumption.
    unfold delta. destruct (Nat.eqb (S j) M), (Nat.eqb i j); field; exact Hd.
Qed.

(* mat_vec is the matrix product with the node values (node, space) read as a matrix *)
Lemma mv_ext M A A' v v' m i :
  (forall j, (j < M)%nat -> A m j = A' m j) -> (forall j, (j < M)%nat -> v j i = v' j i) ->
  mv M A v m i = mv M A' v' m i.
Proof. exact (mm_ext M A v A' v' m i). Qed.

Lemma mv_mv M A B v m i : mv M A (mv M B v) m i = mv M (mm M A B) v m i.
Proof. symmetry. exact (mm_assoc M A B v m i). Qed.

Lemma mv_inv M A B v m i : (forall j, (j < M)%nat -> mm M A B m j = dl m j) -> (m < M)%nat ->
  mv M A (mv M B v) m i = v m i.
Proof. intros HAB Hm. rewrite mv_mv, (mv_ext M _ dl v v m i) by auto. exact (sum_delta_l M m (fun j => v j i) Hm). Qed.

Lemma mv_null M A v m i : (forall j, (j < M)%nat -> v j i = 0) -> mv M A v m i = 0.
Proof. intros H. apply sum_null. intros j Hj. rewrite H by exact Hj. ring. Qed.

Lemma apm_is_mv L T x l m i : apm L T x l m i = mv L T (fun l' => x l' m) l i.
Proof. reflexivity. Qed.

Lemma appA_zero n A v i : (forall j, (j < n)%nat -> v j = 0) -> appA n A v i = 0.
Proof.
  intros H. apply sum_null. intros j Hj. rewrite H by exact Hj. ring.
Qed.

Lemma appA_add n A x y i : appA n A (fun p => x p + y p) i = appA n A x i + appA n A y i.
Proof. unfold apply_A. rewrite <- sum_add. apply sum_ext. intros; ring. Qed.

Lemma appA_sub n A x y i : appA n A (fun p => x p - y p) i = appA n A x i - appA n A y i.
Proof. unfold apply_A. rewrite <- sum_sub. apply sum_ext. intros; ring. Qed.

(* A commutes with linear combinations over the nodes *)
Lemma appA_mv n A M B v m i :
  appA n A (mv M B v m) i = mv M B (fun j => appA n A (v j)) m i.
Proof. apply sum_comb. Qed.

(* for the scalar problem u' = a u, division by 1 - factor a fulfils the contract of problem.solve_jacobian *)
Lemma scalar_solve a fac (rhs : vec F) i : 1 - fac * a <> 0 -> (i < 1)%nat ->
  rhs i / (1 - fac * a) - fac * appA 1 (fun _ _ => a) (fun i => rhs i / (1 - fac * a)) i = rhs i.
Proof. intros Hnz Hi. assert (i = 0)%nat as -> by lia. unfold apply_A. cbn [sumn]. field. exact Hnz. Qed.

(* the local operator of step l in Fourier space:  (G (x) I - dt Q (x) A) x  *)
Definition Kop (M n : nat) (dt : F) (Q A G : mat F) (x : nodesv F) : nodesv F :=
  fun m i => mv M G x m i - sum M (fun j => (dt * Q m j) * appA n A (x j) i).

Section OneShot.
Variables (M n : nat) (dt : F) (Q A G Ginv Sm Smi : mat F) (w : nat -> F) (solve : F -> vec F -> vec F).
(* contracts of numpy.linalg.eig / inv in computeDiagonalization, of sparse inv in get_G_inv_matrix *)
Hypothesis HSS : forall i j, (i < M)%nat -> (j < M)%nat -> mm M Sm Smi i j = dl i j.
Hypothesis Heig : forall i j, (i < M)%nat -> (j < M)%nat -> mm M (mm M Q Ginv) Sm i j = Sm i j * w j.
Hypothesis HGG : forall i j, (i < M)%nat -> (j < M)%nat -> mm M G Ginv i j = dl i j.
(* contract of problem.solve_jacobian for the linear problem u' = A u: (I - factor A) x = rhs *)
Hypothesis Hsolve : forall m rhs i, (m < M)%nat -> (i < n)%nat ->
  solve (w m * dt) rhs i - (w m * dt) * appA n A (solve (w m * dt) rhs) i = rhs i.

Notation upd := (qdiag_update F f0 fadd fmul M dt w Sm Smi Ginv solve).

Lemma one_shot r m i : (m < M)%nat -> (i < n)%nat -> Kop M n dt Q A G (upd r) m i = r m i.
Proof.
  intros Hm Hi. unfold Kop, qdiag_update.
  set (x1 := mv M Smi r). set (x2 := fun m0 => solve (w m0 * dt) (x1 m0)).
  set (z := mv M Sm x2).
  rewrite (mv_inv M G Ginv z m i) by auto.
  set (a := fun p => appA n A (x2 p)).
  assert (Hy : forall j, appA n A (mv M Ginv z j) i = mv M (mm M Ginv Sm) a j i).
  { intros j. rewrite appA_mv, <- mv_mv. apply mv_ext; [reflexivity|]. intros k _. apply appA_mv. }
  rewrite (sum_ext M _ (fun j => dt * (Q m j * mv M (mm M Ginv Sm) a j i)))
    by (intros j _; rewrite Hy; ring).
  rewrite sum_scal.
  change (sum M (fun j => Q m j * mv M (mm M Ginv Sm) a j i)) with (mv M Q (mv M (mm M Ginv Sm) a) m i).
  rewrite mv_mv.
  rewrite (mv_ext M _ (fun i j => Sm i j * w j) a a m i)
    by (intros; try reflexivity; rewrite <- mm_assoc; apply Heig; assumption).
  transitivity (mv M Sm x1 m i); [|apply mv_inv; auto].
  unfold z, mat_vec. rewrite <- sum_scal, <- sum_sub. apply sum_ext. intros p Hp.
  rewrite <- (Hsolve p (x1 p) i Hp Hi). unfold a, x2. ring.
Qed.

End OneShot.

(* every step satisfies its collocation problem with the end value of the previous step (the last
   node: RADAU-RIGHT, no collocation update) as initial value: sequential collocation time stepping *)
Definition seq_collocation (L M n : nat) (dt : F) (Q A : mat F) (g : stepsv F) (u0 : vec F) (u : stepsv F) : Prop :=
  forall l m i, (l < L)%nat -> (m < M)%nat -> (i < n)%nat ->
    u l m i = step_ic F M u0 u l i + sum M (fun j => (dt * Q m j) * (appA n A (u l j) i + g l j i)).

Lemma zero_residual_sequential L M n dt Q A g u0 u :
  (forall l m i, (l < L)%nat -> (m < M)%nat -> (i < n)%nat ->
     block_residual F f0 fadd fmul fsub M n dt Q A g u0 u l m i = 0) ->
  seq_collocation L M n dt Q A g u0 u.
Proof.
  intros Hr l m i Hl Hm Hi. specialize (Hr l m i Hl Hm Hi). unfold block_residual, residual in Hr.
  set (s := sum M (fun j => (dt * Q m j) * (appA n A (u l j) i + g l j i))) in *.
  transitivity (u l m i + (s + (step_ic F M u0 u l i - u l m i))); [rewrite Hr|]; ring.
Qed.

(* Where the all-at-once residual vanishes the increment vanishes (a solver that answers zero to zero): the
   sequential solution is a fixed point of the iteration. *)
Section ZeroResidual.
Variables (L M n : nat) (dt : F) (Q A : mat F) (g : stepsv F) (W V : mat F).
Variables (w : nat -> nat -> F) (Sm Smi Ginv : nat -> mat F) (solve : F -> vec F -> vec F) (u0 : vec F).
Hypothesis solve_zero : forall fac r, (forall i, (i < n)%nat -> r i = 0) ->
  forall i, (i < n)%nat -> solve fac r i = 0.

Lemma zero_residual_zero_increment u :
  (forall l m i, (l < L)%nat -> (m < M)%nat -> (i < n)%nat ->
     block_residual F f0 fadd fmul fsub M n dt Q A g u0 u l m i = 0) ->
  forall l m i, (l < L)%nat -> (m < M)%nat -> (i < n)%nat ->
  paradiag_increment F f0 fadd fmul fsub L M n dt Q A g W V w Sm Smi Ginv solve u0 u l m i = 0.
Proof.
  intros Hr l m i Hl Hm Hi. unfold paradiag_increment, apply_matrix, qdiag_update. cbv zeta.
  apply sum_null. intros k Hk. rewrite mv_null; [ring|]. intros j Hj.
  apply mv_null. intros p Hp. apply solve_zero; [|exact Hi]. intros q Hq.
  apply mv_null. intros j' Hj'. apply sum_null. intros l' Hl'. rewrite Hr by assumption. ring.
Qed.

End ZeroResidual.

Section Block.
Variables (L M n : nat) (dt : F) (Q A As : mat F) (g : stepsv F) (W V E H : mat F) (d : nat -> F).
Variables (w : nat -> nat -> F) (Sm Smi Ginv : nat -> mat F) (solve : F -> vec F -> vec F) (u0 : vec F).
Notation upd k := (qdiag_update F f0 fadd fmul M dt (w k) (Sm k) (Smi k) (Ginv k) solve).
Notation res := (block_residual F f0 fadd fmul fsub M n dt Q A g u0).
Notation incr := (paradiag_increment F f0 fadd fmul fsub L M n dt Q A g W V w Sm Smi Ginv solve u0).
Hypothesis HVW : forall j l, (j < L)%nat -> (l < L)%nat -> mm L V W j l = dl j l.
Hypothesis HEV : forall k l, (k < L)%nat -> (l < L)%nat -> mm L E V k l = V k l * d l.
(* the sweep of step k solves the local system of G_k = d_k H + I *)
Hypothesis Hloc : forall k r m i, (k < L)%nat -> (m < M)%nat -> (i < n)%nat ->
  Kop M n dt Q As (fun i j => d k * H i j + dl i j) (upd k r) m i = r m i.

(* The increment of one ParaDiag iteration solves the alpha-circulant all-at-once system
     (I (x) (I - dt Q (x) As) + E (x) H) inc = r     exactly. *)
Lemma increment_solves_diagonalised_system u l m i : (l < L)%nat -> (m < M)%nat -> (i < n)%nat ->
  incr u l m i - sum M (fun j => (dt * Q m j) * appA n As (incr u l j) i)
    + sum L (fun l' => E l l' * mv M H (incr u l') m i) = res u l m i.
Proof.
  intros Hl Hm Hi. unfold paradiag_increment. cbv zeta.
  set (rhat := apm L W (res u)). set (xhat := fun k => upd k (rhat k)).
  (* each of the three terms is the V-combination of the same term of the xhat k ... *)
  set (a := fun k => sum M (fun j => (dt * Q m j) * appA n As (xhat k j) i)).
  set (h := fun k => mv M H (xhat k) m i).
  assert (T2 : sum M (fun j => (dt * Q m j) * appA n As (apm L V xhat l j) i) = sum L (fun k => V l k * a k)).
  { unfold a. rewrite <- sum_comb. apply sum_ext. intros j _. f_equal. apply sum_comb. }
  assert (T3 : sum L (fun l' => E l l' * mv M H (apm L V xhat l') m i) = sum L (fun k => V l k * (d k * h k))).
  { rewrite (sum_ext L _ (fun l' => E l l' * sum L (fun k => h k * V l' k))).
    - rewrite sum_comb. apply sum_ext. intros k Hk.
      change (sum L (fun j => E l j * V j k)) with (mm L E V l k). rewrite HEV by assumption. ring.
    - intros l' _. f_equal. unfold h, mat_vec, apply_matrix. rewrite sum_comb. apply sum_ext. intros; ring. }
  unfold apply_matrix at 1. rewrite T2, T3, <- sum_sub, <- sum_add.
  (* ... and these add up to the local system of step k, which xhat k solves for rhat k = (W r) k *)
  rewrite (sum_ext L _ (fun k => V l k * rhat k m i)).
  - apply (mv_inv L V W (fun l' => res u l' m) l i); auto.
  - intros k Hk. rewrite <- (Hloc k (rhat k) m i Hk Hm Hi). unfold Kop, mat_vec. fold (xhat k).
    rewrite (sum_ext M _ (fun j => d k * (H m j * xhat k j i) + dl m j * xhat k j i)) by (intros; ring).
    rewrite sum_add, sum_scal, (sum_delta_l M m (fun j => xhat k j i) Hm). unfold a, h, mat_vec. ring.
Qed.

End Block.

Section Roots.
Variable N : nat.
Variables s om omi g gi alpha : F.
Hypothesis HN : (0 < N)%nat.
Hypothesis Hom : om * omi = 1.
Hypothesis HomN : om ^ N = 1.
Hypothesis Hprim : forall j, (0 < j < N)%nat -> om ^ j <> 1.
Hypothesis Hs : s * s * sum N (fun _ => 1) = 1.
Hypothesis Hg : g * gi = 1.
Hypothesis HgN : g ^ N = alpha.

Lemma omiN : omi ^ N = 1.
Proof. assert (H := inv_pair_pow om omi N Hom). rewrite HomN in H. ring [H]. Qed.

Lemma omi_prim j : (0 < j < N)%nat -> omi ^ j <> 1.
Proof.
  intros Hj E. apply (Hprim j Hj). assert (H := inv_pair_pow om omi j Hom). rewrite E in H. ring [H].
Qed.

Lemma inv_pow k : 1 / (gi ^ k) = g ^ k.
Proof. apply div_of_inv, inv_pair_pow, Hg. Qed.

Lemma inv_gi : 1 / gi = g.
Proof. exact (div_of_inv g gi Hg). Qed.

Lemma ortho j l : (j < N)%nat -> (l < N)%nat ->
  sum N (fun k => om ^ (j * k) * omi ^ (l * k)) = if Nat.eqb j l then sum N (fun _ => 1) else 0.
Proof.
  intros Hj Hl. destruct (Nat.eqb_spec j l) as [->|Hne].
  - apply sum_ext. intros k _. apply inv_pair_pow, Hom.
  - destruct (Nat.lt_ge_cases l j) as [Hlt|Hge].
    + apply ortho_lt; [exact Hom|exact HomN| |exact Hlt]. apply Hprim. lia.
    + rewrite (sum_ext N _ (fun k => omi ^ (l * k) * om ^ (j * k))) by (intros; ring).
      apply ortho_lt; [rewrite <- Hom; ring|exact omiN| |lia]. apply omi_prim. lia.
Qed.

Notation W := (wfft F f0 f1 fadd fmul fdiv N s om gi).
Notation V := (wifft F f0 f1 fadd fmul N s omi gi).
Notation Wc := (wfft_cf F f1 fmul fdiv s om gi).
Notation Vc := (wifft_cf F f1 fmul s omi gi).
Notation E := (E_mat F f0 f1 fopp N alpha).
Notation dfac := (d_fac F f1 fmul fopp fdiv om gi).

(* the products with the diagonal matrices J^-1 and J, as the code forms them, have the closed forms *)
Lemma wfft_closed j k : (k < N)%nat -> W j k = Wc j k.
Proof.
  intros Hk. unfold wfft, mmul, wfft_cf.
  rewrite (sum_single N k) by (try assumption; intros m Hm Hne; unfold Jinv_mat;
    destruct (Nat.eqb_spec m k); try congruence; ring).
  unfold Jinv_mat, fft_mat. rewrite Nat.eqb_refl. reflexivity.
Qed.

Lemma wifft_closed j k : (j < N)%nat -> V j k = Vc j k.
Proof.
  intros Hk. unfold wifft, mmul, wifft_cf.
  rewrite (sum_single N j) by (try assumption; intros m Hm Hne; unfold J_mat;
    destruct (Nat.eqb_spec j m); try congruence; ring).
  unfold J_mat, ifft_mat. rewrite Nat.eqb_refl. reflexivity.
Qed.

Lemma sN_delta j l : s * s * (if Nat.eqb j l then sum N (fun _ => 1) else 0) = dl j l.
Proof. unfold delta. destruct (Nat.eqb j l); [exact Hs|ring]. Qed.

(* (J conj F) (F J^-1) = I *)
Lemma wifft_wfft j l : (j < N)%nat -> (l < N)%nat -> mm N V W j l = dl j l.
Proof.
  intros Hj Hl.
  rewrite (mm_ext N V W Vc Wc) by (intros; auto using wifft_closed, wfft_closed).
  unfold mmul, wifft_cf, wfft_cf.
  rewrite (sum_ext N _ (fun k => (gi ^ j * g ^ l * (s * s)) * (om ^ (l * k) * omi ^ (j * k)))).
  2:{ intros k _. rewrite inv_pow, (Nat.mul_comm k l). ring. }
  rewrite sum_scal, ortho by assumption.
  transitivity (gi ^ j * g ^ l * (s * s * (if Nat.eqb l j then sum N (fun _ => 1) else 0))); [ring|].
  rewrite sN_delta. unfold delta. rewrite (Nat.eqb_sym l j). destruct (Nat.eqb_spec j l) as [->|]; [|ring].
  ring [(inv_pair_pow g gi l Hg)].
Qed.

(* (F J^-1) (J conj F) = I *)
Lemma wfft_wifft j l : (j < N)%nat -> (l < N)%nat -> mm N W V j l = dl j l.
Proof.
  intros Hj Hl.
  rewrite (mm_ext N W V Wc Vc) by (intros; auto using wifft_closed, wfft_closed).
  unfold mmul, wifft_cf, wfft_cf.
  rewrite (sum_ext N _ (fun k => (s * s) * (om ^ (j * k) * omi ^ (l * k)))).
  2:{ intros k _. rewrite inv_pow, (Nat.mul_comm k l). ring [(inv_pair_pow g gi k Hg)]. }
  rewrite sum_scal, ortho by assumption. apply sN_delta.
Qed.

Lemma omi_wrap l : omi ^ (pred N * l) = om ^ l.
Proof.
  assert (H1 : omi ^ (pred N * l) * omi ^ l = 1).
  { rewrite <- pow_add. replace (pred N * l + l)%nat with (l * N)%nat by nia.
    rewrite Nat.mul_comm, pow_mul, omiN. apply pow_one. }
  transitivity (omi ^ (pred N * l) * (om ^ l * omi ^ l)); [ring [(inv_pair_pow om omi l Hom)]|ring [H1]].
Qed.

(* E_alpha (J conj F) = (J conj F) diag(d): the columns of the weighted iFFT are eigenvectors *)
Lemma E_wifft k l : (k < N)%nat -> (l < N)%nat -> mm N E V k l = V k l * dfac l.
Proof.
  intros Hk Hl. rewrite (wifft_closed k l Hk).
  rewrite (mm_ext N E V E Vc k l) by (intros; auto using wifft_closed).
  unfold mmul. rewrite (E_row N alpha (fun m => Vc m l) k Hk).
  unfold d_fac, wifft_cf. rewrite inv_gi.
  destruct k as [|k'].
  - assert (HgS : alpha = g * g ^ pred N) by (rewrite <- HgN, <- (Nat.succ_pred_pos N HN) at 1; reflexivity).
    rewrite omi_wrap, HgS. simpl. ring [(inv_pair_pow g gi (pred N) Hg)].
  - replace (S k' * l)%nat with (l + k' * l)%nat by lia. rewrite pow_add. simpl (gi ^ S k').
    ring [Hg (inv_pair_pow om omi l Hom)].
Qed.

(* (F J^-1) E_alpha (J conj F) = diag(d_l),  d_l = -g om^l *)
Lemma diagonalisation j l : (j < N)%nat -> (l < N)%nat ->
  mm N (mm N W E) V j l = if Nat.eqb j l then dfac l else 0.
Proof.
  intros Hj Hl. rewrite mm_assoc.
  rewrite (mm_ext N W (mm N E V) W (fun k l => V k l * dfac l) j l)
    by (intros; auto using E_wifft).
  transitivity (mm N W V j l * dfac l).
  - unfold mmul. rewrite <- sum_scal_r. apply sum_ext. intros; ring.
  - rewrite wfft_wifft by assumption. unfold delta. destruct (Nat.eqb j l); ring.
Qed.

Notation Gd := (G_diag F f0 f1 fadd fmul fopp fdiv N alpha om gi).

(* the factor get_G_inv_matrix computes (FFT of the weighted first column of E_alpha) is d_l *)
Lemma G_diag_is_dfac l : (l < N)%nat -> Gd l = dfac l.
Proof.
  intros Hl. unfold G_diag, d_fac. rewrite inv_gi.
  destruct (Nat.eq_dec N 1) as [E1|E1].
  - rewrite (sum_single N 0) by (try lia; intros; lia).
    unfold E_mat. destruct (Nat.eqb_spec 1 N); [|lia]. assert (l = 0)%nat as -> by lia.
    rewrite inv_pow, <- HgN, E1. simpl. ring.
  - rewrite (sum_single N 1).
    + unfold E_mat. rewrite inv_pow, Nat.mul_1_l. simpl. ring.
    + lia.
    + intros k Hk Hne. unfold E_mat. destruct k as [|[|k]]; [|congruence|simpl; ring].
      destruct (Nat.eqb_spec 1 N); [lia|simpl; ring].
Qed.

End Roots.

(* The block of N steps with the concrete transforms: om a primitive N-th root of unity with inverse omi,
   s = 1/sqrt N, g = alpha^(1/N) with inverse gi; then the contracts of the local solves of every step. *)
Section Circulant.
Variables (N M n : nat) (s om omi g gi alpha dt : F) (Q A : mat F) (gf : stepsv F).
Variables (w : nat -> nat -> F) (Sm Smi Ginv : nat -> mat F) (solve : F -> vec F -> vec F) (u0 : vec F).
Hypothesis HN : (0 < N)%nat.
Hypothesis HM : (0 < M)%nat.
Hypothesis Hom : om * omi = 1.
Hypothesis HomN : om ^ N = 1.
Hypothesis Hprim : forall j, (0 < j < N)%nat -> om ^ j <> 1.
Hypothesis Hs : s * s * sum N (fun _ => 1) = 1.
Hypothesis Hg : g * gi = 1.
Hypothesis HgN : g ^ N = alpha.
Notation W := (wfft F f0 f1 fadd fmul fdiv N s om gi).
Notation V := (wifft F f0 f1 fadd fmul N s omi gi).
Notation E := (E_mat F f0 f1 fopp N alpha).
Notation dfac := (d_fac F f1 fmul fopp fdiv om gi).
Notation Gl := (fun l => G_mat F f0 f1 fadd fmul M (dfac l)).
Hypothesis HSS : forall l i j, (l < N)%nat -> (i < M)%nat -> (j < M)%nat -> mm M (Sm l) (Smi l) i j = dl i j.
Hypothesis Heig : forall l i j, (l < N)%nat -> (i < M)%nat -> (j < M)%nat ->
  mm M (mm M Q (Ginv l)) (Sm l) i j = Sm l i j * w l j.
Hypothesis HGG : forall l i j, (l < N)%nat -> (i < M)%nat -> (j < M)%nat -> mm M (Gl l) (Ginv l) i j = dl i j.

Notation res := (block_residual F f0 fadd fmul fsub M n dt Q A gf u0).
Notation incr := (paradiag_increment F f0 fadd fmul fsub N M n dt Q A gf W V w Sm Smi Ginv solve u0).
Notation iter := (paradiag_iter F f0 fadd fmul fsub N M n dt Q A gf W V w Sm Smi Ginv solve u0).

(* the solves may invert another matrix As than the A of the residual (IMEX) *)
Section Split.
Variable As : mat F.
Hypothesis HsolveAs : forall l m rhs i, (l < N)%nat -> (m < M)%nat -> (i < n)%nat ->
  solve (w l m * dt) rhs i - (w l m * dt) * appA n As (solve (w l m * dt) rhs) i = rhs i.

Lemma full_increment_solves_alpha_system u l m i : (l < N)%nat -> (m < M)%nat -> (i < n)%nat ->
  incr u l m i - sum M (fun j => (dt * Q m j) * appA n As (incr u l j) i)
    + sum N (fun l' => E l l' * mv M (Hm M) (incr u l') m i) = res u l m i.
Proof.
  apply (increment_solves_diagonalised_system N M n dt Q A As gf W V E (Hm M) dfac).
  - intros. apply (wifft_wfft N s om omi g gi); assumption.
  - intros. apply (E_wifft N s om omi g gi alpha); assumption.
  - intros k r m' i' Hk. apply (one_shot M n dt Q As (Gl k) (Ginv k)); auto.
Qed.

Lemma full_fixed_point_is_sequential u :
  (forall l m i, (l < N)%nat -> (m < M)%nat -> (i < n)%nat -> incr u l m i = 0) ->
  seq_collocation N M n dt Q A gf u0 u.
Proof.
  intros H0. apply zero_residual_sequential. intros l m i Hl Hm Hi.
  rewrite <- full_increment_solves_alpha_system by assumption.
  rewrite H0, (sum_null M), (sum_null N); try assumption.
  - ring.
  - intros l' Hl'. rewrite mv_null; [ring|]. intros j Hj. apply H0; assumption.
  - intros j Hj. rewrite appA_zero; [ring|]. intros p Hp. apply H0; assumption.
Qed.

End Split.

Hypothesis Hsolve : forall l m rhs i, (l < N)%nat -> (m < M)%nat -> (i < n)%nat ->
  solve (w l m * dt) rhs i - (w l m * dt) * appA n A (solve (w l m * dt) rhs) i = rhs i.

(* the alpha-circulant all-at-once operator  I (x) (I - dt Q (x) A) + E_alpha (x) H *)
Definition Calpha (x : stepsv F) : stepsv F := fun l m i =>
  x l m i - sum M (fun j => (dt * Q m j) * appA n A (x l j) i)
    + sum N (fun l' => E l l' * mv M (Hm M) (x l') m i).

(* the coupling term written out: H picks the last node, E_alpha the previous step (the last one, times alpha,
   for the first) *)
Lemma Calpha_rows x l m i : (l < N)%nat ->
  Calpha x l m i = x l m i - sum M (fun j => (dt * Q m j) * appA n A (x l j) i)
    + match l with O => - (alpha * x (pred N) (pred M) i) | S p => - x p (pred M) i end.
Proof.
  intros Hl. unfold Calpha.
  rewrite (sum_ext N _ (fun l' => E l l' * x l' (pred M) i)) by (intros; rewrite mv_H by exact HM; reflexivity).
  rewrite (E_row N alpha (fun l' => x l' (pred M) i) l Hl). reflexivity.
Qed.

Lemma Calpha_lin x y z l m i : (l < N)%nat ->
  Calpha (fun l m i => x l m i + y l m i - z l m i) l m i = Calpha x l m i + Calpha y l m i - Calpha z l m i.
Proof.
  intros Hl. rewrite !Calpha_rows by exact Hl.
  rewrite (sum_ext M _ (fun j => (dt * Q m j) * appA n A (x l j) i + (dt * Q m j) * appA n A (y l j) i
                                 - (dt * Q m j) * appA n A (z l j) i))
    by (intros; rewrite appA_sub, appA_add; ring).
  rewrite sum_sub, sum_add. destruct l; ring.
Qed.

(* Let ustar be the sequential collocation solution.  One ParaDiag iteration maps the error e = u - ustar
   to e' with   C_alpha e' = (C_alpha - C_0) e,   i.e. zero except in the first step, where it is
   -alpha times the error at the end of the block.  (For alpha -> 0 one iteration is exact; errors at
   the end of the block equal to zero give the exact solution after one iteration.) *)
Lemma error_equation ustar u :
  seq_collocation N M n dt Q A gf u0 ustar ->
  forall l m i, (l < N)%nat -> (m < M)%nat -> (i < n)%nat ->
  Calpha (fun l m i => iter u l m i - ustar l m i) l m i =
  match l with O => - (alpha * (u (pred N) (pred M) i - ustar (pred N) (pred M) i)) | S _ => 0 end.
Proof.
  intros Hseq l m i Hl Hmn Hi.
  (* e' = u + increment - ustar, C_alpha is linear, and C_alpha of the increment is the residual of u ... *)
  change (fun l m i => iter u l m i - ustar l m i) with (fun l m i => u l m i + incr u l m i - ustar l m i).
  rewrite Calpha_lin by exact Hl. unfold Calpha at 2.
  rewrite (full_increment_solves_alpha_system A Hsolve u l m i Hl Hmn Hi).
  (* ... in which ustar, being sequential, cancels everything of C_alpha u - C_alpha ustar but the alpha term *)
  rewrite !Calpha_rows by exact Hl. unfold block_residual, residual. rewrite (Hseq l m i Hl Hmn Hi).
  assert (Hsplit : forall x : stepsv F, sum M (fun j => (dt * Q m j) * (appA n A (x l j) i + gf l j i))
                                        = sum M (fun j => (dt * Q m j) * appA n A (x l j) i)
                                          + sum M (fun j => (dt * Q m j) * gf l j i))
    by (intros; rewrite <- sum_add; apply sum_ext; intros; ring).
  rewrite !Hsplit. destruct l; unfold step_ic, uend; ring.
Qed.

End Circulant.

Section SetGinv.
Variable eig : mat F -> (nat -> F) * mat F * mat F.
Notation setG := (set_G_inv F f0 fadd fmul eig).
Notation qst := (qd_state F).

Lemma set_G_inv_idempotent M Q (st : qst) g : setG M Q (setG M Q st g) g = setG M Q st g.
Proof. reflexivity. Qed.

End SetGinv.

End Theory.

Lemma this_plus (x y : Qc) : (this (x + y)%Qc == this x + this y)%Q.
Proof. unfold Qcplus, Q2Qc. cbn [this]. apply Qred_correct. Qed.
Lemma this_mult (x y : Qc) : (this (x * y)%Qc == this x * this y)%Q.
Proof. unfold Qcmult, Q2Qc. cbn [this]. apply Qred_correct. Qed.

Lemma Qc_sq_sum_zero (a b : Qc) : (a * a + b * b = 0 -> a = 0 /\ b = 0)%Qc.
Proof.
  intros H. assert (Hq : (this (a * a + b * b)%Qc == this 0%Qc)%Q) by (rewrite H; reflexivity).
  rewrite this_plus, !this_mult in Hq. change (this 0%Qc) with 0%Q in Hq.
  split; apply Qc_is_canon; simpl; nra.
Qed.

Lemma gq_eq (x y : GQ) : fst x = fst y -> snd x = snd y -> x = y.
Proof. destruct x, y; simpl; intros; subst; reflexivity. Qed.

Lemma GQ_field : field_theory g0 g1 gadd gmul gsub gopp gdiv ginv (@eq GQ).
Proof.
  constructor.
  - constructor; intros; apply gq_eq; destruct x; try destruct y; try destruct z; simpl; ring.
  - intros H. apply (f_equal fst) in H. simpl in H. discriminate H.
  - reflexivity.
  - intros [a b] Hp.
    assert (Hn : gnorm2 (a, b) <> 0%Qc).
    { unfold gnorm2; simpl. intros E. apply Qc_sq_sum_zero in E. destruct E; subst. apply Hp. reflexivity. }
    unfold gnorm2 in Hn; simpl in Hn.
    apply gq_eq; unfold gmul, ginv, g1, gnorm2; cbn [fst snd]. all: field; exact Hn.
Qed.

Add Field GQfield : GQ_field.

Lemma gout_inj (x y : GQ) : gout x = gout y -> x = y.
Proof.
  destruct x as [a b], y as [c d]. unfold gout; simpl. intros H. injection H as H1 H2.
  f_equal; apply Qc_is_canon; [rewrite H1|rewrite H2]; reflexivity.
Qed.

Ltac gq_compute := apply gout_inj; vm_compute; reflexivity.
Ltac gq_neq := let H := fresh in intros H; apply (f_equal gout) in H; vm_compute in H; discriminate H.

(* an index below 1, 2, 4 is one of 0; 0, 1; 0 .. 3 *)
Ltac one_case i := destruct i as [|i]; [|lia].
Ltac two_cases i := destruct i as [|[|i]]; [| |lia].
Ltac four_cases l := destruct l as [|[|[|[|l]]]]; [| | | |lia].

Definition gq (a b c d : Z) (p q : positive) : GQ := (Q2Qc (a # p), Q2Qc (c # q)).
Definition gqr (a : Z) (p : positive) : GQ := (Q2Qc (a # p), 0%Qc).

Notation gsum := (sumn GQ g0 gadd).
Notation gpow := (fpow GQ g1 gmul).
Notation gmm := (mmul GQ g0 gadd gmul).
Notation gdl := (delta GQ g0 g1).

(* ---- instance 1: N = 4, om = -i, s = 1/2, g = 1/2, alpha = 1/16: the hypotheses on the roots hold *)
Definition i4_s := gqr 1 2.   Definition i4_om := gopp gI.   Definition i4_omi := gI.
Definition i4_g := gqr 1 2.   Definition i4_gi := gqr 2 1.   Definition i4_alpha := gqr 1 16.

Lemma i4_Hom : gmul i4_om i4_omi = g1. Proof. gq_compute. Qed.
Lemma i4_HomN : gpow i4_om 4 = g1. Proof. gq_compute. Qed.
Lemma i4_Hprim : forall j, (0 < j < 4)%nat -> gpow i4_om j <> g1.
Proof. intros j Hj. four_cases j; try lia; gq_neq. Qed.
Lemma i4_Hs : gmul (gmul i4_s i4_s) (gsum 4 (fun _ => g1)) = g1. Proof. gq_compute. Qed.
Lemma i4_Hg : gmul i4_g i4_gi = g1. Proof. gq_compute. Qed.
Lemma i4_HgN : gpow i4_g 4 = i4_alpha. Proof. gq_compute. Qed.

(* the hypotheses of the general theorems, as they hold in the N = 4 instances below *)
Create HintDb c15_inst discriminated.
#[local] Hint Resolve i4_Hom i4_HomN i4_Hprim i4_Hs i4_Hg i4_HgN : c15_inst.

Definition i4_W := wfft GQ g0 g1 gadd gmul gdiv 4 i4_s i4_om i4_gi.
Definition i4_V := wifft GQ g0 g1 gadd gmul 4 i4_s i4_omi i4_gi.
Definition i4_E := E_mat GQ g0 g1 gopp 4 i4_alpha.
Definition i4_d := d_fac GQ g1 gmul gopp gdiv i4_om i4_gi.

(* the theorems specialise to this instance *)
Lemma i4_inverse j l : (j < 4)%nat -> (l < 4)%nat -> gmm 4 i4_V i4_W j l = gdl j l.
Proof.
  apply (wifft_wfft GQ g0 g1 gadd gmul gsub gopp gdiv ginv GQ_field 4 i4_s i4_om i4_omi i4_g i4_gi);
    auto with c15_inst arith.
Qed.

Lemma i4_diagonalisation j l : (j < 4)%nat -> (l < 4)%nat ->
  gmm 4 (gmm 4 i4_W i4_E) i4_V j l = if Nat.eqb j l then i4_d l else g0.
Proof.
  apply (diagonalisation GQ g0 g1 gadd gmul gsub gopp gdiv ginv GQ_field 4 i4_s i4_om i4_omi i4_g i4_gi i4_alpha);
    auto with c15_inst arith.
Qed.

(* N = 1 special case: E = [-alpha], both transforms are [1], the factor is -alpha *)
Lemma i1_diagonalisation_computed :
  let W := wfft GQ g0 g1 gadd gmul gdiv 1 g1 g1 (gqr 3 1) in
  let V := wifft GQ g0 g1 gadd gmul 1 g1 g1 (gqr 3 1) in
  gq_tab2 1 1 (gmm 1 (gmm 1 W (E_mat GQ g0 g1 gopp 1 (gqr 1 3))) V) = [[(-1 # 3, 0)]]%Q
  /\ gout (G_diag GQ g0 g1 gadd gmul gopp gdiv 1 (gqr 1 3) g1 (gqr 3 1) 0) = (-1 # 3, 0)%Q.
Proof. vm_compute. split; reflexivity. Qed.

(* ---- instance 2: one-shot solve with M = 2 nodes; Q is manufactured from a rational eigen-decomposition
   (the theorem is for every Q), G is the factor matrix of step l = 1 of the N = 4 block above *)
Definition o_M := 2%nat.
Definition o_d := i4_d 1.
Definition o_G := G_mat GQ g0 g1 gadd gmul o_M o_d.
Definition o_Ginv := G_inv_cf GQ g0 g1 gadd gmul gsub gdiv o_M o_d.
Definition o_S : mat GQ := fun i j => match i, j with 0, 0 => gqr 1 1 | 0, 1 => gqr 1 1 | 1, 0 => gqr 1 1 | 1, 1 => gqr 2 1 | _, _ => g0 end%nat.
Definition o_Si : mat GQ := fun i j => match i, j with 0, 0 => gqr 2 1 | 0, 1 => gqr (-1) 1 | 1, 0 => gqr (-1) 1 | 1, 1 => gqr 1 1 | _, _ => g0 end%nat.
Definition o_w : nat -> GQ := fun j => match j with 0 => gqr 1 2 | _ => gqr 1 3 end%nat.
Definition o_Q : mat GQ := gmm 2 (gmm 2 (fun i j => gmul (o_S i j) (o_w j)) o_Si) o_G.
Definition o_dt := gqr 1 5.
Definition o_A : mat GQ := fun _ _ => gqr (-2) 1.
Definition o_solve (fac : GQ) (rhs : vec GQ) : vec GQ := fun i => gdiv (rhs i) (gsub g1 (gmul fac (gqr (-2) 1))).

Lemma o_HSS i j : (i < 2)%nat -> (j < 2)%nat -> gmm 2 o_S o_Si i j = gdl i j.
Proof. intros Hi Hj. two_cases i; two_cases j; gq_compute. Qed.
Lemma o_Heig i j : (i < 2)%nat -> (j < 2)%nat -> gmm 2 (gmm 2 o_Q o_Ginv) o_S i j = gmul (o_S i j) (o_w j).
Proof. intros Hi Hj. two_cases i; two_cases j; gq_compute. Qed.
Lemma o_HGG i j : (i < 2)%nat -> (j < 2)%nat -> gmm 2 o_G o_Ginv i j = gdl i j.
Proof. intros Hi Hj. two_cases i; two_cases j; gq_compute. Qed.
Lemma o_Hsolve m rhs i : (m < 2)%nat -> (i < 1)%nat ->
  gsub (o_solve (gmul (o_w m) o_dt) rhs i)
       (gmul (gmul (o_w m) o_dt) (apply_A GQ g0 gadd gmul 1 o_A (o_solve (gmul (o_w m) o_dt) rhs) i)) = rhs i.
Proof.
  intros Hm. apply (scalar_solve GQ g0 g1 gadd gmul gsub gopp gdiv ginv GQ_field (gqr (-2) 1)). two_cases m; gq_neq.
Qed.

(* ---- instance 3: a block of N = 4 implicit-Euler steps (M = 1, Q = [1]) for u' = -u, dt = 1/4 *)
Definition b_dt := gqr 1 4.
Definition b_Q : mat GQ := fun _ _ => g1.
Definition b_A : mat GQ := fun _ _ => gqr (-1) 1.
Definition b_g : stepsv GQ := fun _ _ _ => g0.
Definition b_Ginv (l : nat) : mat GQ := G_inv_cf GQ g0 g1 gadd gmul gsub gdiv 1 (i4_d l).
Definition b_S (l : nat) : mat GQ := gdl.
Definition b_w (l m : nat) : GQ := b_Ginv l 0%nat 0%nat.
Definition b_solve (fac : GQ) (rhs : vec GQ) : vec GQ := fun i => gdiv (rhs i) (gsub g1 (gmul fac (gqr (-1) 1))).
Definition b_u0 : vec GQ := fun _ => g1.
Definition b_incr := paradiag_increment GQ g0 gadd gmul gsub 4 1 1 b_dt b_Q b_A b_g i4_W i4_V b_w b_S b_S b_Ginv b_solve b_u0.
Definition b_iter := paradiag_iters GQ g0 gadd gmul gsub.
Definition b_step :=
  paradiag_iter GQ g0 gadd gmul gsub 4 1 1 b_dt b_Q b_A b_g i4_W i4_V b_w b_S b_S b_Ginv b_solve b_u0.

Lemma b_HSS l i j : (l < 4)%nat -> (i < 1)%nat -> (j < 1)%nat -> gmm 1 (b_S l) (b_S l) i j = gdl i j.
Proof. intros Hl Hi Hj. one_case i; one_case j. gq_compute. Qed.
Lemma b_Heig l i j : (l < 4)%nat -> (i < 1)%nat -> (j < 1)%nat ->
  gmm 1 (gmm 1 b_Q (b_Ginv l)) (b_S l) i j = gmul (b_S l i j) (b_w l j).
Proof.
  intros Hl Hi Hj. one_case i; one_case j. unfold mmul, b_Q, b_S, b_w, delta. cbn [sumn Nat.eqb]. ring.
Qed.
Lemma b_HGG l i j : (l < 4)%nat -> (i < 1)%nat -> (j < 1)%nat ->
  gmm 1 (G_mat GQ g0 g1 gadd gmul 1 (i4_d l)) (b_Ginv l) i j = gdl i j.
Proof. intros Hl Hi Hj. one_case i; one_case j. four_cases l; gq_compute. Qed.
Lemma b_Hsolve l m rhs i : (l < 4)%nat -> (m < 1)%nat -> (i < 1)%nat ->
  gsub (b_solve (gmul (b_w l m) b_dt) rhs i)
       (gmul (gmul (b_w l m) b_dt) (apply_A GQ g0 gadd gmul 1 b_A (b_solve (gmul (b_w l m) b_dt) rhs) i)) = rhs i.
Proof.
  intros Hl Hm. apply (scalar_solve GQ g0 g1 gadd gmul gsub gopp gdiv ginv GQ_field (gqr (-1) 1)).
  one_case m. four_cases l; gq_neq.
Qed.
#[local] Hint Resolve b_HSS b_Heig b_HGG b_Hsolve : c15_inst.

Lemma b_fixed_point_instance u :
  (forall l m i, (l < 4)%nat -> (m < 1)%nat -> (i < 1)%nat -> b_incr u l m i = g0) ->
  seq_collocation GQ g0 gadd gmul 4 1 1 b_dt b_Q b_A b_g b_u0 u.
Proof.
  apply (full_fixed_point_is_sequential GQ g0 g1 gadd gmul gsub gopp gdiv ginv GQ_field 4 1 1
           i4_s i4_om i4_omi i4_g i4_gi i4_alpha b_dt b_Q b_A b_g b_w b_S b_S b_Ginv b_solve b_u0) with (As := b_A);
    auto with c15_inst arith.
Qed.

(* the sequential implicit-Euler values (4/5)^(l+1) are a fixed point: the hypothesis above is satisfiable *)
Definition b_useq : stepsv GQ := fun l _ _ => gpow (gqr 4 5) (S l).
Lemma b_useq_fixed l m i : (l < 4)%nat -> (m < 1)%nat -> (i < 1)%nat -> b_incr b_useq l m i = g0.
Proof.
  revert l m i. apply (zero_residual_zero_increment GQ g0 g1 gadd gmul gsub gopp gdiv ginv GQ_field).
  - intros fac r H i Hi. unfold b_solve, gdiv. rewrite H by exact Hi. ring.
  - intros l m i Hl Hm Hi. one_case m; one_case i. four_cases l; gq_compute.
Qed.

(* the error equation at the block instance (its hypotheses are satisfiable) ... *)
Lemma b_error_equation_instance u l m i : (l < 4)%nat -> (m < 1)%nat -> (i < 1)%nat ->
  Calpha GQ g0 g1 gadd gmul gsub gopp 4 1 1 i4_alpha b_dt b_Q b_A
    (fun l m i => gsub (b_step u l m i) (b_useq l m i)) l m i
  = match l with O => gopp (gmul i4_alpha (gsub (u 3 0 i) (b_useq 3 0 i)))%nat | S _ => g0 end.
Proof.
  intros Hl Hmn Hi.
  apply (error_equation GQ g0 g1 gadd gmul gsub gopp gdiv ginv GQ_field 4 1 1
           i4_s i4_om i4_omi i4_g i4_gi i4_alpha b_dt b_Q b_A b_g b_w b_S b_S b_Ginv b_solve b_u0);
    auto with c15_inst arith.
  apply b_fixed_point_instance. exact b_useq_fixed.
Qed.

(* ... gives the contraction of the error at the end of the block.  With c = 1 + dt the rows l > 0 say
   e'_(l-1) = c e'_l, so row 0 reads (c^4 - alpha) e'_3 = -alpha e_3:  the factor is -alpha/(c^4 - alpha) = -16/609. *)
Lemma b_contraction (u : stepsv GQ) :
  (gsub (b_step u 3 0 0) (b_useq 3 0 0) = gmul (gqr (-16) 609) (gsub (u 3 0 0) (b_useq 3 0 0)))%nat.
Proof.
  assert (H : forall l, (l < 4)%nat -> _)
    by exact (fun l Hl => b_error_equation_instance u l 0 0 Hl Nat.lt_0_1 Nat.lt_0_1).
  assert (H0 := H 0%nat ltac:(lia)). assert (H1 := H 1%nat ltac:(lia)).
  assert (H2 := H 2%nat ltac:(lia)). assert (H3 := H 3%nat ltac:(lia)). clear H.
  rewrite (Calpha_rows GQ g0 g1 gadd gmul gsub gopp gdiv ginv GQ_field 4 1 1 i4_alpha b_dt b_Q b_A)
    in H0, H1, H2, H3 by lia.
  unfold apply_A, b_Q, b_A in *. cbn [sumn pred] in *.
  set (x0 := (gsub (b_step u 0 0 0) (b_useq 0 0 0))%nat) in *. set (x1 := (gsub (b_step u 1 0 0) (b_useq 1 0 0))%nat) in *.
  set (x2 := (gsub (b_step u 2 0 0) (b_useq 2 0 0))%nat) in *. set (x3 := (gsub (b_step u 3 0 0) (b_useq 3 0 0))%nat) in *.
  set (c := gsub g1 (gmul b_dt (gqr (-1) 1))).
  apply (sub_zero_eq GQ g0 g1 gadd gmul gsub gopp gdiv ginv GQ_field) in H1, H2, H3.
  apply (cancel_factor GQ g0 g1 gadd gmul gsub gopp gdiv ginv GQ_field
           (gsub (gmul c (gmul c (gmul c c))) i4_alpha) _ (gopp i4_alpha)).
  - unfold c. gq_neq.
  - transitivity (gopp (gmul i4_alpha (gsub (u 3 0 0) (b_useq 3 0 0))))%nat; [|ring].
    rewrite <- H0, H1, H2, H3. unfold c. ring.
  - unfold c. gq_compute.
Qed.

(* ... so the iteration started from the spread initial value approaches the sequential values: after 3
   iterations the squared distance at the end of the block is below 1e-6 (alpha = 1/16) *)
Definition b_spread : stepsv GQ := fun _ _ _ => g1.
Lemma b_iteration_converges :
  let u3 := b_iter 3 4 1 1 b_dt b_Q b_A b_g i4_W i4_V b_w b_S b_S b_Ginv b_solve b_u0 b_spread in
  (this (gnorm2 (gsub (u3 3 0 0) (b_useq 3 0 0)))%nat < 1 # 1000000)%Q.
Proof.
  intros u3. change u3 with (b_step (b_step (b_step b_spread))).
  rewrite !b_contraction. vm_compute. reflexivity.
Qed.

