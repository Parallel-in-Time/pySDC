(* C20 — proofs about the model in Model/Descr.v: dict_to_list, the level hierarchy, the verdict of
   `build` (what each stage accepts, as predicates on the description and on the levels it denotes; error
   class per fault kind), registration and ordering of convergence controllers, frozen classes. *)
From Coq Require Import String List ZArith Bool Arith Lia Permutation Sorted.
From PySDC Require Import Model.Descr.
Import ListNotations.
Open Scope string_scope.
Open Scope list_scope.

Lemma fold_left_inv {A B} (P : A -> Prop) (f : A -> B -> A) l :
  (forall a b, In b l -> P a -> P (f a b)) -> forall a, P a -> P (fold_left f l a).
Proof.
  induction l as [|b l IH]; simpl; intros H a Ha; [exact Ha|].
  apply IH; [intros; apply H; auto | apply H; auto].
Qed.

Lemma NoDup_app_intro {A} (l1 l2 : list A) :
  NoDup l1 -> NoDup l2 -> (forall x, In x l1 -> In x l2 -> False) -> NoDup (l1 ++ l2).
Proof.
  induction l1 as [|a l1 IH]; simpl; auto. intros H1 H2 H3. inversion H1; subst. constructor.
  - rewrite in_app_iff. intros [H|H]; [tauto | eapply H3; eauto].
  - apply IH; auto. intros x Hx. apply H3. now right.
Qed.

Lemma lookup_dset {V} k k' (v : V) d :
  lookup k (dset k' v d) = if String.eqb k k' then Some v else lookup k d.
Proof.
  induction d as [|[k2 v2] r IH]; simpl; [reflexivity|].
  destruct (String.eqb_spec k' k2) as [->|N]; simpl.
  - now destruct (String.eqb k k2).
  - rewrite IH. destruct (String.eqb_spec k k2) as [->|]; [|reflexivity].
    destruct (String.eqb_spec k2 k'); congruence.
Qed.

Lemma lookup_None_notin {V} k (d : dict V) : lookup k d = None <-> ~ In k (keys d).
Proof.
  induction d as [|[k' v] r IH]; simpl; [tauto|].
  destruct (String.eqb_spec k k'); subst.
  - split; [discriminate | intros H; exfalso; apply H; now left].
  - rewrite IH. split; [intros H [A|A]; [congruence|tauto] | tauto].
Qed.

Lemma lookup_In {V} k (v : V) d : lookup k d = Some v -> In (k, v) d.
Proof.
  induction d as [|[k' v'] r IH]; simpl; [discriminate|].
  destruct (String.eqb_spec k k') as [->|]; [intros [= ->]; now left | right; auto].
Qed.

Lemma has_true {V} k (d : dict V) : has k d = true <-> exists v, lookup k d = Some v.
Proof. unfold has. destruct (lookup k d) as [v|]; split; [exists v; reflexivity | reflexivity | discriminate | intros [v H]; discriminate]. Qed.

Lemma has_false {V} k (d : dict V) : has k d = false <-> lookup k d = None.
Proof. unfold has. destruct (lookup k d); split; congruence. Qed.

Lemma In_has {V} k (v : V) d : In (k, v) d -> has k d = true.
Proof.
  intros H. destruct (has k d) eqn:E; [reflexivity|].
  apply has_false, lookup_None_notin in E. destruct E. exact (in_map fst _ _ H).
Qed.

Lemma mem_str_In s l : mem_str s l = true <-> In s l.
Proof.
  unfold mem_str. rewrite existsb_exists. split.
  - intros [x [H E]]. apply String.eqb_eq in E. now subst.
  - intros H. exists s. split; auto. apply String.eqb_refl.
Qed.

Lemma mem_str_false s l : mem_str s l = false <-> ~ In s l.
Proof. rewrite <- mem_str_In. now destruct (mem_str s l). Qed.

Lemma has_mem_keys {V} k (d : dict V) : has k d = mem_str k (keys d).
Proof.
  unfold has, mem_str. induction d as [|[k' v] r IH]; simpl; [reflexivity|].
  now destruct (String.eqb k k').
Qed.

Lemma dset_absent {V} k (v : V) d : lookup k d = None -> dset k v d = d ++ [(k, v)].
Proof.
  induction d as [|[k' v'] r IH]; simpl; auto.
  destruct (String.eqb k k'); [discriminate|]. intros H. now rewrite IH.
Qed.

(* d[k] = d.get(k, v): an entry is added at the end, and only under a key that is absent *)
Lemma lookup_dset_if_absent {V} k k' (v : V) d :
  lookup k (if has k' d then d else dset k' v d) =
  match lookup k d with Some x => Some x | None => if String.eqb k k' then Some v else None end.
Proof.
  unfold has. destruct (lookup k' d) eqn:H.
  - destruct (lookup k d) eqn:E; auto. destruct (String.eqb_spec k k'); congruence.
  - rewrite lookup_dset. destruct (String.eqb_spec k k') as [->|]; [now rewrite H | now destruct (lookup k d)].
Qed.

(* keys of a Python dict are distinct *)
Definition dict_wf {V} (d : dict V) : Prop := NoDup (keys d).

(* {**d1, **d2}: the right operand wins *)
Lemma lookup_dupdate {V} k (d1 d2 : dict V) : dict_wf d2 ->
  lookup k (dupdate d1 d2) = match lookup k d2 with Some v => Some v | None => lookup k d1 end.
Proof.
  unfold dupdate. intros ND. revert d1. induction d2 as [|[k2 v2] r IH]; intros d1; simpl; auto.
  inversion ND as [|? ? Hn ND']; subst. rewrite (IH ND'), lookup_dset.
  destruct (String.eqb_spec k k2) as [->|]; [|reflexivity].
  apply lookup_None_notin in Hn. now rewrite Hn.
Qed.

Lemma lookup_dupdate_Some {V} k (v : V) d1 d2 : dict_wf d2 -> lookup k d2 = Some v -> lookup k (dupdate d1 d2) = Some v.
Proof. intros H1 H2. now rewrite lookup_dupdate, H2. Qed.

Lemma keys_dset {V} k (v : V) d : keys (dset k v d) = if mem_str k (keys d) then keys d else keys d ++ [k].
Proof.
  induction d as [|[k' v'] r IH]; simpl; auto.
  destruct (String.eqb_spec k k'); simpl; [now subst|]. rewrite IH.
  destruct (mem_str k (keys r)); reflexivity.
Qed.

Lemma dict_wf_dset {V} k (v : V) d : dict_wf d -> dict_wf (dset k v d).
Proof.
  unfold dict_wf. intros H. rewrite keys_dset. destruct (mem_str k (keys d)) eqn:E; auto.
  apply NoDup_app_intro; auto.
  - repeat constructor. intros [].
  - intros x Hx [<-|[]]. apply mem_str_In in Hx. congruence.
Qed.

Lemma dict_wf_dupdate {V} (d1 d2 : dict V) : dict_wf d1 -> dict_wf (dupdate d1 d2).
Proof. unfold dupdate. apply (fold_left_inv dict_wf). intros. now apply dict_wf_dset. Qed.

(* what the library does not say about list_max *)
Lemma fold_max_base b l : fold_right Nat.max b l = Nat.max b (list_max l).
Proof. induction l as [|a l IH]; simpl; [lia|]. rewrite IH. lia. Qed.

Lemma max_base_app b l1 l2 :
  Nat.max b (list_max (l1 ++ l2)) = Nat.max (Nat.max b (list_max l1)) (Nat.max b (list_max l2)).
Proof. rewrite list_max_app. lia. Qed.

Lemma list_max_ge l x : In x l -> x <= list_max l.
Proof. intros H. exact (proj1 (Forall_forall _ l) (proj1 (list_max_le l _) (le_n _)) x H). Qed.

Lemma list_max_attained l : l = [] \/ In (list_max l) l.
Proof.
  induction l as [|a l IH]; [now left | right]. simpl.
  destruct (Nat.max_spec a (list_max l)) as [[Hlt ->]|[_ ->]]; [right | now left].
  destruct IH as [->|IH]; [simpl in Hlt; lia | exact IH].
Qed.

Lemma list_max_ext l1 l2 : (forall x, In x l1 <-> In x l2) -> list_max l1 = list_max l2.
Proof.
  assert (G : forall l l', (forall x, In x l -> In x l') -> list_max l <= list_max l').
  { intros l l' H. apply list_max_le, Forall_forall. intros x Hx. apply list_max_ge, H, Hx. }
  intros H. apply Nat.le_antisymm; apply G; intros x; apply H.
Qed.

(* Step.__dict_to_list *)

Section D2L.
  Context {V : Type}.
  Implicit Types (d : dict (pv V)).

  Lemma max_val_list_max d : max_val d = Nat.max 1 (list_max (list_lengths d)).
  Proof.
    unfold max_val. rewrite <- fold_max_base. generalize 1.
    induction d as [|[k [v|vs]] r IH]; intros m; simpl; auto.
    rewrite IH. clear. induction (list_lengths r); simpl; lia.
  Qed.

  Lemma In_list_lengths d x : In x (list_lengths d) <-> exists k vs, In (k, PList vs) d /\ length vs = x.
  Proof.
    unfold list_lengths. rewrite in_flat_map. split.
    - intros [[k p] [H1 H2]]. destruct p; simpl in H2; [tauto|]. destruct H2 as [<-|[]]. eauto.
    - intros [k [vs [H <-]]]. exists (k, PList vs). split; simpl; auto.
  Qed.

  (* the three clauses of "as many entries as the longest list" *)
  Lemma max_val_ge1 d : 1 <= max_val d.
  Proof. rewrite max_val_list_max. apply Nat.le_max_l. Qed.

  Lemma max_val_bound d k vs : In (k, PList vs) d -> length vs <= max_val d.
  Proof.
    intros H. rewrite max_val_list_max. etransitivity; [|apply Nat.le_max_r].
    apply list_max_ge, In_list_lengths. eauto.
  Qed.

  Lemma max_val_attained d : max_val d = 1 \/ exists k vs, In (k, PList vs) d /\ length vs = max_val d.
  Proof.
    rewrite max_val_list_max. destruct (list_max_attained (list_lengths d)) as [E|E]; [left; now rewrite E|].
    destruct (Nat.max_spec 1 (list_max (list_lengths d))) as [[_ ->]|[_ ->]]; [right; now apply In_list_lengths | now left].
  Qed.

  Lemma sel_None l (p : pv V) : sel l p = None <-> p = PList [].
  Proof.
    destruct p as [v|vs]; simpl; [split; discriminate|].
    rewrite nth_error_None. destruct vs; simpl; split; intros H; try reflexivity; try discriminate; lia.
  Qed.

  Lemma sel_scalar l (v : V) : sel l (Scalar v) = Some v.
  Proof. reflexivity. Qed.

  (* selecting with an index clipped at a bound that is at least the length changes nothing *)
  Lemma sel_clip l n (p : pv V) : (forall vs, p = PList vs -> length vs <= n) -> sel (Nat.min l (n - 1)) p = sel l p.
  Proof.
    destruct p as [v|vs]; simpl; auto. intros H. specialize (H vs eq_refl). f_equal. lia.
  Qed.

  Lemma row_lookup {l d r} k : row l d = Some r ->
    lookup k r = match lookup k d with Some p => sel l p | None => None end.
  Proof.
    revert r. induction d as [|[k' p] d IH]; intros r; simpl.
    - now intros [= <-].
    - destruct (sel l p) eqn:Es; [|discriminate]. destruct (row l d); [|discriminate].
      intros [= <-]. simpl. destruct (String.eqb k k'); [congruence | auto].
  Qed.

  Lemma row_keys l d r : row l d = Some r -> keys r = keys d.
  Proof.
    revert r. induction d as [|[k' p] d IH]; intros r; simpl.
    - now intros [= <-].
    - destruct (sel l p); [|discriminate]. destruct (row l d); [|discriminate].
      intros [= <-]. simpl. f_equal. now apply IH.
  Qed.

  Lemma row_None l d : row l d = None <-> exists k, In (k, PList []) d.
  Proof.
    induction d as [|[k' p] d IH]; simpl.
    - split; [discriminate | intros [k []]].
    - pose proof (sel_None l p) as Hs. destruct (sel l p).
      + destruct (row l d).
        * split; [discriminate|]. intros [k [[= _ ->]|H]]; [discriminate (proj2 Hs eq_refl) | discriminate (proj2 IH (ex_intro _ k H))].
        * split; [intros _|reflexivity]. destruct (proj1 IH eq_refl) as [k H]. eauto.
      + split; [intros _|reflexivity]. exists k'. left. now rewrite (proj1 Hs eq_refl).
  Qed.

  Lemma all_some_Some {A} (l : list (option A)) r : all_some l = Some r -> l = map Some r.
  Proof.
    revert r. induction l as [|[x|] l IH]; intros r; simpl; try discriminate.
    - now intros [= <-].
    - destruct (all_some l); [|discriminate]. intros [= <-]. simpl. f_equal. now apply IH.
  Qed.

  Lemma all_some_None {A} (l : list (option A)) : all_some l = None <-> In None l.
  Proof.
    induction l as [|[x|] l IH]; simpl.
    - split; [discriminate | intros []].
    - destruct (all_some l).
      + split; [discriminate|]. intros [H|H]; [discriminate H | discriminate (proj2 IH H)].
      + split; [intros _|reflexivity]. right. now apply IH.
    - split; auto.
  Qed.

  Lemma dict_to_list_rows {d ld} : dict_to_list d = Some ld ->
    map (fun l => row l d) (seq 0 (max_val d)) = map Some ld.
  Proof. apply all_some_Some. Qed.

  Theorem dict_to_list_length {d ld} : dict_to_list d = Some ld -> length ld = max_val d.
  Proof.
    intros H. apply dict_to_list_rows, (f_equal (@length _)) in H. now rewrite !map_length, seq_length in H.
  Qed.

  Theorem dict_to_list_row {d ld l dl} : dict_to_list d = Some ld -> nth_error ld l = Some dl ->
    row l d = Some dl /\ l < max_val d.
  Proof.
    intros H Hn. assert (Hl : l < max_val d).
    { rewrite <- (dict_to_list_length H). apply nth_error_Some. congruence. }
    split; [|exact Hl]. apply (map_nth_error Some) in Hn. rewrite <- (dict_to_list_rows H) in Hn.
    rewrite (map_nth_error _ l (seq 0 (max_val d)) (d := l)) in Hn; [congruence|].
    rewrite (nth_error_nth' _ 0) by now rewrite seq_length. now rewrite seq_nth.
  Qed.

  (* level l gets v[min(l, len v - 1)] of a list and v of a scalar *)
  Theorem dict_to_list_entry {d ld l dl k p} : dict_to_list d = Some ld -> nth_error ld l = Some dl ->
    lookup k d = Some p -> lookup k dl = sel l p.
  Proof.
    intros H Hn Hk. destruct (dict_to_list_row H Hn) as [Hr _].
    rewrite (row_lookup k Hr), Hk. reflexivity.
  Qed.

  Theorem dict_to_list_keys d ld l dl : dict_to_list d = Some ld -> nth_error ld l = Some dl -> keys dl = keys d.
  Proof. intros H Hn. destruct (dict_to_list_row H Hn) as [Hr _]. now apply row_keys in Hr. Qed.

  (* IndexError exactly when some list-valued entry is empty *)
  Theorem dict_to_list_None d : dict_to_list d = None <-> exists k, In (k, PList []) d.
  Proof.
    unfold dict_to_list. rewrite all_some_None, in_map_iff. split.
    - intros [l [H _]]. now apply row_None in H.
    - intros H. exists 0. split; [now apply row_None|].
      apply in_seq. pose proof (max_val_ge1 d). lia.
  Qed.

  Lemma dict_to_list_Some d : (exists ld, dict_to_list d = Some ld) <-> forall k, ~ In (k, PList []) d.
  Proof.
    pose proof (dict_to_list_None d) as H. destruct (dict_to_list d) as [ld|].
    - split; [intros _ k Hk | eauto]. discriminate (proj2 H (ex_intro _ k Hk)).
    - split; [intros [ld E]; discriminate E | intros E]. destruct (proj1 H eq_refl) as [k Hk]. now destruct (E k).
  Qed.

  Lemma sel_map {B} (f : V -> B) l (vs : list V) : sel l (PList (map f vs)) = option_map f (sel l (PList vs)).
  Proof. simpl. rewrite map_length. apply nth_error_map. Qed.
End D2L.

(* Step.__generate_hierarchy *)

Definition descr_defaults : descr :=
  [("problem_params", DD []); ("base_transfer_class", DV (Scalar oBaseTransfer)); ("base_transfer_params", DD []);
   ("space_transfer_class", DD []); ("space_transfer_params", DD [])].

Definition add_defaults (t d : descr) : descr := fold_left (fun d kv => set_default (fst kv) (snd kv) d) t d.

Lemma with_defaults_fold d : with_defaults d = add_defaults descr_defaults d.
Proof. reflexivity. Qed.

(* set_default is that code at type descr (sweeper_p0 and sweeper_dict spell it out); rewriting does not
   see through the type name in the conditional, hence the instance *)
Lemma lookup_set_default k k' v (d : descr) :
  lookup k (set_default k' v d) = match lookup k d with Some x => Some x | None => if String.eqb k k' then Some v else None end.
Proof. apply lookup_dset_if_absent. Qed.

Lemma set_default_app k v (d : descr) : set_default k v d = d ++ (if has k d then [] else [(k, v)]).
Proof. unfold set_default. destruct (has k d) eqn:H; [now rewrite app_nil_r | now apply dset_absent, has_false]. Qed.

(* defaults never override, and all they do is add entries of the table *)
Lemma lookup_add_defaults t d k :
  lookup k (add_defaults t d) = match lookup k d with Some x => Some x | None => lookup k t end.
Proof.
  revert d. induction t as [|[k' v] t IH]; intros d; simpl; [now destruct (lookup k d)|].
  unfold add_defaults in IH. rewrite IH, lookup_set_default.
  destruct (lookup k d); [reflexivity|]. now destruct (String.eqb k k').
Qed.

Lemma In_add_defaults t d kv : In kv (add_defaults t d) -> In kv d \/ In kv t.
Proof.
  revert d. induction t as [|[k v] t IH]; intros d H; simpl in *; auto.
  apply IH in H. destruct H as [H|H]; auto. rewrite set_default_app, in_app_iff in H.
  destruct H as [H|H]; auto. destruct (has k d); [destruct H | destruct H as [<-|[]]; auto].
Qed.

Lemma add_defaults_incl t d kv : In kv d -> In kv (add_defaults t d).
Proof.
  revert d. induction t as [|[k v] t IH]; intros d H; simpl; auto.
  apply IH. rewrite set_default_app. apply in_app_iff. now left.
Qed.

(* the defaults of the description hold neither a list nor a non-empty dict *)
Definition plain_default (v : dval) : bool := match v with DD [] | DV (Scalar _) => true | _ => false end.

Lemma defaults_plain kv : In kv descr_defaults -> plain_default (snd kv) = true.
Proof. revert kv. apply forallb_forall. reflexivity. Qed.

Lemma lookup_with_defaults k d :
  lookup k (with_defaults d) = match lookup k d with Some x => Some x | None => lookup k descr_defaults end.
Proof. rewrite with_defaults_fold. apply lookup_add_defaults. Qed.

Lemma has_with_defaults k d : has k (with_defaults d) = has k d || has k descr_defaults.
Proof. unfold has. rewrite lookup_with_defaults. now destruct (lookup k d). Qed.

Lemma In_with_defaults kv d : In kv (with_defaults d) -> In kv d \/ plain_default (snd kv) = true.
Proof. rewrite with_defaults_fold. intros H. apply In_add_defaults in H. destruct H; auto using defaults_plain. Qed.

Lemma In_with_defaults_incl kv d : In kv d -> In kv (with_defaults d).
Proof. rewrite with_defaults_fold. apply add_defaults_incl. Qed.

Lemma get_dd_with_defaults k d : get_dd k (with_defaults d) = get_dd k d.
Proof.
  unfold get_dd. rewrite lookup_with_defaults. destruct (lookup k d); [reflexivity|].
  destruct (lookup k descr_defaults) as [v|] eqn:E; [|reflexivity].
  apply lookup_In, defaults_plain in E. now destruct v as [?|[|]].
Qed.

Lemma first_err_None l : first_err l = None <-> Forall (eq None) l.
Proof.
  induction l as [|[e|] l IH]; simpl.
  - split; auto.
  - split; [discriminate | intros H; inversion H; discriminate].
  - rewrite IH. split; [auto | now intros H; inversion H].
Qed.

Lemma first_err_Some l e : first_err l = Some e -> In (Some e) l.
Proof. induction l as [|[e'|] l IH]; simpl; [discriminate | intros [= ->] | ]; auto. Qed.

Lemma check_deprecated_None d : check_deprecated d = None <-> has "dtype_u" d = false /\ has "dtype_f" d = false.
Proof.
  unfold check_deprecated. simpl. destruct (has _ d), (has _ d); simpl; intuition congruence.
Qed.

Lemma check_deprecated_Some {d e} : check_deprecated d = Some e -> exists k, e = (ParameterError, RDeprecated k).
Proof.
  intros H. apply first_err_Some, in_map_iff in H. destruct H as [k [H _]]. exists k. cbv beta in H. destruct (has k d); [now injection H | discriminate].
Qed.

Lemma check_essential_None d : check_essential d = None <-> forall k, In k essential_keys -> has k d = true.
Proof.
  unfold check_essential. rewrite first_err_None, Forall_map, Forall_forall.
  split; intros H k Hk; specialize (H k Hk); cbv beta in *; [now destruct (has k d) | now rewrite H].
Qed.

Lemma check_essential_Some {d e} : check_essential d = Some e -> exists k, e = (ParameterError, RMissing k).
Proof.
  intros H. apply first_err_Some, in_map_iff in H. destruct H as [k [H _]]. exists k. cbv beta in H. destruct (has k d); [discriminate | now injection H].
Qed.

(* The outer dictionary: the value under one of the three converted keys is the per-level list of
   that section (looked up in [conv]), any other value goes through unchanged. *)
Definition conv (pl ll sl : list (dict atom)) : dict (list (dict atom)) :=
  [("problem_params", pl); ("level_params", ll); ("sweeper_params", sl)].

Definition outer_value pl ll sl k (v : dval) : pv oval :=
  match lookup k (conv pl ll sl), v with
  | Some xl, _ => PList (map OD xl)
  | None, DV (Scalar a) => Scalar (OA a)
  | None, DV (PList vs) => PList (map OA vs)
  | None, DD x => Scalar (ODP x)
  end.

Lemma outer_entry_eq pl ll sl k v : outer_entry pl ll sl (k, v) = (k, outer_value pl ll sl k v).
Proof.
  unfold outer_entry, outer_value, conv. simpl.
  do 3 (destruct (String.eqb k _); [reflexivity|]). reflexivity.
Qed.

Lemma conv_None pl ll sl k : lookup k (conv pl ll sl) = None <-> mem_str k converted_keys = false.
Proof. rewrite <- has_false, has_mem_keys. reflexivity. Qed.

Lemma conv_In pl ll sl k : In k converted_keys -> exists xl, lookup k (conv pl ll sl) = Some xl.
Proof. intros H. apply has_true. rewrite has_mem_keys. now apply mem_str_In. Qed.

Lemma conv_Some pl ll sl k xl : lookup k (conv pl ll sl) = Some xl -> In k converted_keys /\ In xl [pl; ll; sl].
Proof.
  intros H. split.
  - apply mem_str_In. change (mem_str k (keys (conv pl ll sl)) = true). rewrite <- has_mem_keys. apply has_true. eauto.
  - exact (in_map snd _ _ (lookup_In _ _ _ H)).
Qed.

Definition sections (d : descr) pl ll sl : Prop :=
  dict_to_list (get_dd "problem_params" d) = Some pl /\ dict_to_list (get_dd "level_params" d) = Some ll /\
  dict_to_list (get_dd "sweeper_params" d) = Some sl.

Lemma sections_lookup {d pl ll sl sec xl} :
  sections d pl ll sl -> lookup sec (conv pl ll sl) = Some xl -> dict_to_list (get_dd sec d) = Some xl.
Proof.
  intros (Hp & Hl & Hs). unfold conv. simpl.
  do 3 (destruct (String.eqb sec _) eqn:K; [apply String.eqb_eq in K; now intros [= <-]; subst | clear K]). discriminate.
Qed.

Lemma sections_exist d :
  (exists pl ll sl, sections d pl ll sl) <-> forall sec, In sec converted_keys -> forall k, ~ In (k, PList []) (get_dd sec d).
Proof.
  split.
  - intros (pl & ll & sl & Hc) sec Hsec. destruct (conv_In pl ll sl _ Hsec) as [xl C].
    apply dict_to_list_Some. exists xl. exact (sections_lookup Hc C).
  - intros H. assert (Hx : forall sec, In sec converted_keys -> exists xl, dict_to_list (get_dd sec d) = Some xl).
    { intros sec Hsec. apply dict_to_list_Some, H, Hsec. }
    destruct (Hx "problem_params") as [pl Hp]; [simpl; auto|].
    destruct (Hx "level_params") as [ll Hl]; [simpl; auto|].
    destruct (Hx "sweeper_params") as [sl Hs]; [simpl; auto|].
    exists pl, ll, sl. repeat split; assumption.
Qed.

(* what gen_hier computes when it succeeds *)
Lemma gen_hier_inv {d dls} : gen_hier d = inr dls ->
  check_deprecated d = None /\ check_essential d = None /\
  exists pl ll sl, sections d pl ll sl /\
    dict_to_list (map (outer_entry pl ll sl) (with_defaults d)) = Some dls /\
    ((1 <? length dls)%nat && negb (truthy_dval (lookup_or "space_transfer_class" (with_defaults d) (DD [])))) = false.
Proof.
  unfold gen_hier. set (t := truthy_dval _). clearbody t.
  destruct (check_deprecated d); [discriminate|]. destruct (check_essential d); [discriminate|].
  destruct (dict_to_list (get_dd _ (with_defaults d))) as [pl|] eqn:Hp; [rewrite get_dd_with_defaults in Hp|discriminate].
  destruct (dict_to_list (get_dd _ (with_defaults d))) as [ll|] eqn:Hl; [rewrite get_dd_with_defaults in Hl|discriminate].
  destruct (dict_to_list (get_dd _ (with_defaults d))) as [sl|] eqn:Hs; [rewrite get_dd_with_defaults in Hs|discriminate].
  destruct (dict_to_list (map _ (with_defaults d))) as [dl|] eqn:Ho; [|discriminate].
  destruct (_ && _) eqn:E; [discriminate|]. intros [= <-].
  repeat split. exists pl, ll, sl. repeat split; auto.
Qed.

Lemma lookup_outer pl ll sl {k} {d : descr} {v} : lookup k d = Some v ->
  lookup k (map (outer_entry pl ll sl) (with_defaults d)) = Some (outer_value pl ll sl k v).
Proof.
  intros H. assert (H' : lookup k (with_defaults d) = Some v) by now rewrite lookup_with_defaults, H.
  clear H. induction (with_defaults d) as [|[k' v'] r IH]; [discriminate|].
  cbn [map]. rewrite outer_entry_eq. cbn [lookup] in *.
  destruct (String.eqb_spec k k') as [->|]; [now injection H' as -> | auto].
Qed.

Lemma outer_lists d pl ll sl k ws :
  In (k, PList ws) (map (outer_entry pl ll sl) (with_defaults d)) <->
  match lookup k (conv pl ll sl) with
  | Some xl => ws = map OD xl /\ has k (with_defaults d) = true
  | None => exists vs, ws = map OA vs /\ In (k, DV (PList vs)) d
  end.
Proof.
  rewrite in_map_iff. split.
  - intros [[k' v] [Heq Hin]]. rewrite outer_entry_eq in Heq. injection Heq as -> Hv. unfold outer_value in Hv.
    destruct (lookup k (conv pl ll sl)).
    + injection Hv as <-. split; [reflexivity | eapply In_has, Hin].
    + destruct v as [[a|vs]|x]; try discriminate. injection Hv as <-. exists vs. split; [reflexivity|].
      apply In_with_defaults in Hin. destruct Hin as [Hin|Hin]; [exact Hin | discriminate Hin].
  - destruct (lookup k (conv pl ll sl)) as [xl|] eqn:C.
    + intros [-> H]. apply has_true in H. destruct H as [v H]. exists (k, v).
      rewrite outer_entry_eq. unfold outer_value. rewrite C. split; [reflexivity | now apply lookup_In].
    + intros [vs [-> H]]. exists (k, DV (PList vs)).
      rewrite outer_entry_eq. unfold outer_value. rewrite C. split; [reflexivity | now apply In_with_defaults_incl].
Qed.

Lemma outer_empty {d pl ll sl} k : sections d pl ll sl ->
  In (k, PList []) (map (outer_entry pl ll sl) (with_defaults d)) <->
  In (k, DV (PList [])) d /\ mem_str k converted_keys = false.
Proof.
  intros Hc. rewrite outer_lists, <- (conv_None pl ll sl). destruct (lookup k (conv pl ll sl)) as [xl|] eqn:C.
  - split; [intros [H _] | intros [_ H]; discriminate H].
    apply (sections_lookup Hc), dict_to_list_length in C. pose proof (max_val_ge1 (get_dd k d)).
    destruct xl; [simpl in C; lia | discriminate].
  - split; [intros [[|] [H Hin]]; [auto | discriminate] | intros [H _]; now exists []].
Qed.

Lemma In_outer_lengths d x :
  In x (outer_list_lengths d) <-> exists k vs, In (k, DV (PList vs)) d /\ mem_str k converted_keys = false /\ length vs = x.
Proof.
  unfold outer_list_lengths. rewrite in_flat_map. split.
  - intros [[k v] [H1 H2]]. cbn [fst snd] in H2. destruct (mem_str k converted_keys) eqn:E; [destruct H2|].
    destruct v as [[a|vs]|dd]; cbn [In] in H2; try tauto. destruct H2 as [<-|[]]. eauto.
  - intros [k [vs [H [E <-]]]]. exists (k, DV (PList vs)). cbn [fst snd]. rewrite E. cbn [In]. auto.
Qed.

(* problem_params has a default, the other two converted keys are essential *)
Lemma converted_present d k : check_essential d = None -> In k converted_keys -> has k (with_defaults d) = true.
Proof.
  intros He Hk. rewrite check_essential_None in He. rewrite has_with_defaults.
  destruct Hk as [<-|[<-|[<-|[]]]]; [apply orb_true_r | |]; rewrite He; simpl; auto.
Qed.

Lemma outer_max_val {d pl ll sl} : check_essential d = None -> sections d pl ll sl ->
  max_val (map (outer_entry pl ll sl) (with_defaults d)) = nlevels d.
Proof.
  intros He Hc. rewrite max_val_list_max. unfold nlevels. rewrite fold_max_base.
  rewrite (list_max_ext _ (outer_list_lengths d ++ map (@length _) [pl; ll; sl])).
  - destruct Hc as (Hp & Hl & Hs). apply dict_to_list_length in Hp, Hl, Hs.
    rewrite !max_base_app, <- !max_val_list_max. apply (f_equal (Nat.max _)). cbn [map list_max fold_right]. rewrite Nat.max_0_r, <- Hp, <- Hl, <- Hs.
    apply Nat.max_r. etransitivity; [|apply Nat.le_max_l]. rewrite Hp. apply max_val_ge1.
  - intros x. rewrite In_list_lengths, in_app_iff, In_outer_lengths, in_map_iff. split.
    + intros [k [ws [Hin <-]]]. apply outer_lists in Hin. destruct (lookup k (conv pl ll sl)) as [xl|] eqn:C.
      * destruct Hin as [-> _]. right. exists xl. rewrite map_length. split; [reflexivity | eapply conv_Some, C].
      * destruct Hin as [vs [-> Hin]]. left. exists k, vs. rewrite map_length. apply conv_None in C. auto.
    + intros [[k [vs [Hin [Hm <-]]]] | [xl [<- Hxl]]].
      * exists k, (map OA vs). rewrite map_length. split; [|reflexivity].
        apply outer_lists. apply (conv_None pl ll sl) in Hm. rewrite Hm. eauto.
      * assert (Hk : exists k, lookup k (conv pl ll sl) = Some xl).
        { destruct Hxl as [<-|[<-|[<-|[]]]]; [exists "problem_params" | exists "level_params" | exists "sweeper_params"]; reflexivity. }
        destruct Hk as [k C]. exists k, (map OD xl). rewrite map_length. split; [|reflexivity].
        apply outer_lists. rewrite C. split; [reflexivity|]. eapply converted_present, conv_Some, C. exact He.
Qed.

(* The hierarchy has exactly as many levels as the longest list (at least one) *)
Theorem levels_eq_longest_list d dls : gen_hier d = inr dls -> length dls = nlevels d.
Proof.
  intros H. destruct (gen_hier_inv H) as (_ & Hess & pl & ll & sl & Hc & Ho & _).
  rewrite (dict_to_list_length Ho). now apply outer_max_val.
Qed.

Lemma nested_sel (P : dict (pv atom)) xl l k p :
  dict_to_list P = Some xl -> lookup k P = Some p ->
  exists pd, sel l (PList (map OD xl)) = Some (OD pd) /\ lookup k pd = sel l p.
Proof.
  intros HP Hk. rewrite sel_map. pose proof (dict_to_list_length HP) as Hlen.
  pose proof (max_val_ge1 P) as Hge. simpl.
  destruct (nth_error xl (Nat.min l (length xl - 1))) as [pd|] eqn:En.
  - exists pd. split; auto. rewrite (dict_to_list_entry HP En Hk). rewrite Hlen.
    apply sel_clip. intros vs ->. apply (max_val_bound P k). now apply lookup_In.
  - apply nth_error_None in En. lia.
Qed.

Lemma hier_entry {d dls l dl k v} : gen_hier d = inr dls -> nth_error dls l = Some dl -> lookup k d = Some v ->
  exists pl ll sl, sections d pl ll sl /\ lookup k dl = sel l (outer_value pl ll sl k v).
Proof.
  intros H Hn Hk. destruct (gen_hier_inv H) as (_ & _ & pl & ll & sl & Hc & Ho & _).
  exists pl, ll, sl. split; [exact Hc | exact (dict_to_list_entry Ho Hn (lookup_outer pl ll sl Hk))].
Qed.

(* level l gets, for every key of the three per-level parameter dicts, v[min(l, len v - 1)] when the
   entry is a list and v itself otherwise *)
Theorem entry_selection d dls l dl sec k p :
  gen_hier d = inr dls -> nth_error dls l = Some dl -> In sec converted_keys ->
  lookup k (get_dd sec d) = Some p ->
  exists pd, lookup sec dl = Some (OD pd) /\ lookup k pd = sel l p.
Proof.
  intros H Hn Hsec Hk.
  assert (Hd : exists v, lookup sec d = Some v).
  { unfold get_dd in Hk. destruct (lookup sec d); [eauto|discriminate]. }
  destruct Hd as [v Hv]. destruct (hier_entry H Hn Hv) as (pl & ll & sl & Hc & ->).
  unfold outer_value. destruct (conv_In pl ll sl _ Hsec) as [xl C]. rewrite C.
  apply (nested_sel (get_dd sec d)); [exact (sections_lookup Hc C) | exact Hk].
Qed.

(* ... and likewise for the list-valued entries of the description itself (classes, ...) *)
Theorem entry_selection_outer d dls l dl k p :
  gen_hier d = inr dls -> nth_error dls l = Some dl -> mem_str k converted_keys = false ->
  lookup k d = Some (DV p) -> lookup k dl = option_map OA (sel l p).
Proof.
  intros H Hn Hm Hk. destruct (hier_entry H Hn Hk) as (pl & ll & sl & _ & ->).
  unfold outer_value. rewrite (proj2 (conv_None pl ll sl k) Hm). destruct p as [a|vs]; [reflexivity | apply sel_map].
Qed.

(* a scalar entry is shared by all levels *)
Corollary scalar_shared d dls l dl sec k v :
  gen_hier d = inr dls -> nth_error dls l = Some dl -> In sec converted_keys ->
  lookup k (get_dd sec d) = Some (Scalar v) ->
  exists pd, lookup sec dl = Some (OD pd) /\ lookup k pd = Some v.
Proof. exact (entry_selection d dls l dl sec k (Scalar v)). Qed.

(* gen_hier accepts exactly the descriptions with: no deprecated key, the essential keys, no
   empty list anywhere, a space transfer class when the longest list has more than one entry *)
Definition DescrOK (d : descr) : Prop :=
  has "dtype_u" d = false /\ has "dtype_f" d = false /\
  (forall k, In k essential_keys -> has k d = true) /\
  (forall k, In (k, DV (PList [])) d -> mem_str k converted_keys = true) /\
  (forall sec, In sec converted_keys -> forall k, ~ In (k, PList []) (get_dd sec d)) /\
  (1 < nlevels d -> truthy_dval (lookup_or "space_transfer_class" (with_defaults d) (DD [])) = true).

(* Under the first five clauses every conversion succeeds, and only the space transfer is left to ask for. *)
Lemma gen_hier_lists_ok d :
  has "dtype_u" d = false -> has "dtype_f" d = false ->
  (forall k, In k essential_keys -> has k d = true) ->
  (forall k, In (k, DV (PList [])) d -> mem_str k converted_keys = true) ->
  (forall sec, In sec converted_keys -> forall k, ~ In (k, PList []) (get_dd sec d)) ->
  exists dls, length dls = nlevels d /\
    gen_hier d = if (1 <? nlevels d)%nat && negb (truthy_dval (lookup_or "space_transfer_class" (with_defaults d) (DD [])))
                 then inl (ParameterError, RNoSpaceTransfer) else inr dls.
Proof.
  intros Hu Hf Hess Hout Hsec.
  assert (Hd : check_deprecated d = None) by now apply check_deprecated_None.
  assert (He : check_essential d = None) by now apply check_essential_None.
  destruct (proj2 (sections_exist d) Hsec) as (pl & ll & sl & Hc).
  destruct (proj2 (dict_to_list_Some (map (outer_entry pl ll sl) (with_defaults d)))) as [dls Ho].
  { intros k H. apply (outer_empty _ Hc) in H. destruct H as [H E]. apply Hout in H. congruence. }
  exists dls. pose proof (dict_to_list_length Ho) as Hlen. rewrite (outer_max_val He Hc) in Hlen.
  split; [exact Hlen|]. destruct Hc as (Hp & Hl & Hs). rewrite <- get_dd_with_defaults in Hp, Hl, Hs.
  unfold gen_hier. set (t := truthy_dval _). clearbody t.
  rewrite Hd, He, Hp, Hl, Hs, Ho, Hlen. reflexivity.
Qed.

Theorem gen_hier_complete d : (exists dls, gen_hier d = inr dls) <-> DescrOK d.
Proof.
  split.
  - intros [dls H]. pose proof (levels_eq_longest_list _ _ H) as Hlen.
    destruct (gen_hier_inv H) as (Hd & Hess & pl & ll & sl & Hc & Ho & Ht).
    apply check_deprecated_None in Hd. destruct Hd as [Hu Hf].
    repeat split; auto.
    + now apply check_essential_None.
    + intros k Hin. destruct (mem_str k converted_keys) eqn:Em; [reflexivity|].
      destruct (proj1 (dict_to_list_Some _) (ex_intro _ dls Ho) k). apply (outer_empty _ Hc). split; assumption.
    + apply sections_exist. eauto.
    + intros Hn. rewrite Hlen in Ht. apply Nat.ltb_lt in Hn. rewrite Hn in Ht. now apply negb_false_iff in Ht.
  - intros (Hu & Hf & Hess & Hout & Hsec & Ht). destruct (gen_hier_lists_ok d Hu Hf Hess Hout Hsec) as [dls [_ ->]].
    destruct (Nat.ltb_spec 1 (nlevels d)); [rewrite Ht by assumption|]; eexists; reflexivity.
Qed.

Lemma in_names_spec a names : in_names a names = true <-> exists s, a = AStr s /\ In s names.
Proof.
  destruct a; simpl; try (split; [discriminate | intros [s0 [H _]]; discriminate]).
  rewrite mem_str_In. split; [eauto | intros [s0 [[= <-] H]]; exact H].
Qed.

Definition sw_user (dl : dict oval) : dict atom := oval_dict (lookup "sweeper_params" dl).

Definition SweeperOK (E : env) (user : dict atom) : Prop :=
  (exists z, lookup "num_nodes" user = Some (AInt z) /\ (0 < z)%Z) /\
  in_names (lookup_or "node_type" user (AStr "LEGENDRE")) (e_node E) = true /\
  in_names (lookup_or "quad_type" user ANone) (e_quad E) = true /\
  in_names (lookup_or "QI" user (AStr "IE")) (e_QI E) = true.

(* The sweeper's constructors only add entries (QI, collocation_class, random_seed) to the user's
   dict: other keys read the same in both. *)
Lemma lookup_sweeper_dict k user : k =? "collocation_class" = false -> k =? "random_seed" = false ->
  lookup k (sweeper_dict user) = match lookup k user with Some x => Some x | None => if k =? "QI" then Some (AStr "IE") else None end.
Proof.
  intros H1 H2. unfold sweeper_dict, sweeper_p0. cbv zeta.
  assert (G : forall (b : bool) v (d : dict atom), lookup k (if b then dset "random_seed" v d else d) = lookup k d).
  { intros [|] v d; [|reflexivity]. now rewrite lookup_dset, H2. }
  rewrite G, lookup_dset_if_absent, H1, lookup_dset_if_absent. now destruct (lookup k user), (k =? "QI").
Qed.

Lemma lookup_or_sweeper_dict k user dflt :
  k =? "QI" = false -> k =? "collocation_class" = false -> k =? "random_seed" = false ->
  lookup_or k (sweeper_dict user) dflt = lookup_or k user dflt.
Proof. intros H1 H2 H3. unfold lookup_or. rewrite lookup_sweeper_dict, H1 by assumption. now destruct (lookup k user). Qed.

Lemma lookup_QI_sweeper_dict user dflt :
  lookup_or "QI" (sweeper_dict user) dflt = lookup_or "QI" user (AStr "IE").
Proof. unfold lookup_or. rewrite lookup_sweeper_dict by reflexivity. now destruct (lookup "QI" user). Qed.

(* right_is_node and vars(sweep.params) of a sweeper that was built from the user's dict *)
Definition sweeper_rnode (user : dict atom) : bool := in_names (lookup_or "quad_type" user ANone) right_node_types.

Definition sweeper_pars (user : dict atom) : dict atom :=
  let pars := dupdate sweeper_defaults (dremove "collocation_class" (sweeper_dict user)) in
  if negb (sweeper_rnode user) && negb (truthy_atom (lookup_or "do_coll_update" pars (ABool false)))
  then dset "do_coll_update" (ABool true) pars else pars.

(* inst_sweeper in terms of what the user wrote *)
Lemma inst_sweeper_eq E l user : inst_sweeper E l user =
  match lookup "num_nodes" user with
  | None => inl (ParameterError, RNumNodesMissing l)
  | Some (AInt z) =>
      if (z <=? 0)%Z then inl (CollocationError, RNumNodes l) else
      if negb (in_names (lookup_or "node_type" user (AStr "LEGENDRE")) (e_node E)) then inl (CollocationError, RNodeType l) else
      if negb (in_names (lookup_or "quad_type" user ANone) (e_quad E)) then inl (CollocationError, RQuadType l) else
      if negb (in_names (lookup_or "QI" user (AStr "IE")) (e_QI E)) then inl (KeyError, RQI l) else
      inr (sweeper_pars user, sweeper_rnode user)
  | Some _ => inl (TypeError, RNumNodesType l)
  end.
Proof.
  unfold inst_sweeper. cbv zeta. set (pars := dupdate sweeper_defaults _).
  (* rewrite the left side alone: the right side is as large and would be carried through every step *)
  etransitivity.
  { rewrite lookup_QI_sweeper_dict, !lookup_or_sweeper_dict by reflexivity.
    unfold sweeper_p0. unfold has at 1. rewrite lookup_dset_if_absent. unfold lookup_or at 1. reflexivity. }
  now destruct (lookup "num_nodes" user) as [[]|].
Qed.

Lemma inst_sweeper_spec E l user r :
  inst_sweeper E l user = inr r <-> SweeperOK E user /\ r = (sweeper_pars user, sweeper_rnode user).
Proof.
  rewrite inst_sweeper_eq. unfold SweeperOK.
  set (node := in_names _ (e_node E)). set (quad := in_names _ (e_quad E)). set (qi := in_names _ (e_QI E)).
  clearbody node quad qi. split.
  - destruct (lookup _ user) as [[z| | | | |]|]; try discriminate. destruct (Z.leb_spec z 0); [discriminate|].
    destruct node; [|discriminate]. destruct quad; [|discriminate]. destruct qi; [|discriminate].
    intros [= <-]. repeat split. exists z. split; [reflexivity | lia].
  - intros [((z & -> & Hz) & -> & -> & ->) ->]. destruct (Z.leb_spec z 0); [lia | reflexivity].
Qed.

Lemma succeeds_iff {A} (x : err + A) (ok : Prop) (v : A) :
  (forall y, x = inr y <-> ok /\ y = v) -> (exists y, x = inr y) <-> ok.
Proof. intros H. split; [intros [y Hy]; now apply H in Hy | intros Ho; exists v; now apply H]. Qed.

Lemma inst_sweeper_ok E l user : (exists r, inst_sweeper E l user = inr r) <-> SweeperOK E user.
Proof. exact (succeeds_iff _ _ _ (inst_sweeper_spec E l user)). Qed.

Definition LevelOK (E : env) (l : nat) (dl : dict oval) : Prop :=
  SweeperOK E (sw_user dl) /\
  inst_problem E l (oval_atom (lookup "problem_class" dl)) (oval_dict (lookup "problem_params" dl)) = None /\
  (0 < l -> inst_transfer l dl = None).

(* the level that one element of the hierarchy denotes *)
Definition level_of (dl : dict oval) : level_inst :=
  {| lv_pcls := oval_atom (lookup "problem_class" dl); lv_scls := oval_atom (lookup "sweeper_class" dl);
     lv_lp := level_pars (oval_dict (lookup "level_params" dl)); lv_sp := sweeper_pars (sw_user dl);
     lv_pp := oval_dict (lookup "problem_params" dl); lv_right_is_node := sweeper_rnode (sw_user dl) |}.

Lemma inst_level_spec E l dl L : inst_level E l dl = inr L <-> LevelOK E l dl /\ L = level_of dl.
Proof.
  unfold inst_level, LevelOK. fold (sw_user dl). set (ip := inst_problem E l _ _). clearbody ip. split.
  - destruct (inst_sweeper E l (sw_user dl)) as [e|r] eqn:Es; [discriminate|]. apply inst_sweeper_spec in Es as [Hok ->].
    fold (level_of dl). destruct ip; [discriminate|]. destruct (Nat.ltb_spec 0 l) as [Hl|Hl].
    + destruct (inst_transfer l dl); [discriminate|]. intros [= <-].
      split; [split; [exact Hok | split; reflexivity] | reflexivity].
    + intros [= <-]. split; [split; [exact Hok | split; [reflexivity | intros; lia]] | reflexivity].
  - intros [(Hok & Hp & Ht) ->]. rewrite (proj2 (inst_sweeper_spec E l _ _) (conj Hok eq_refl)), Hp.
    destruct (Nat.ltb_spec 0 l); [rewrite Ht by assumption|]; reflexivity.
Qed.

Lemma inst_level_ok E l dl : (exists L, inst_level E l dl = inr L) <-> LevelOK E l dl.
Proof. exact (succeeds_iff _ _ _ (inst_level_spec E l dl)). Qed.

Lemma inst_level_fields E l dl L : inst_level E l dl = inr L ->
  lv_lp L = level_pars (oval_dict (lookup "level_params" dl)) /\
  lv_pp L = oval_dict (lookup "problem_params" dl) /\
  lv_pcls L = oval_atom (lookup "problem_class" dl) /\
  lv_scls L = oval_atom (lookup "sweeper_class" dl) /\
  lv_right_is_node L = in_names (lookup_or "quad_type" (sw_user dl) ANone) right_node_types.
Proof. intros H. apply inst_level_spec in H as [_ ->]. repeat split. Qed.

Fixpoint LevelsOK (E : env) (l : nat) (dls : list (dict oval)) : Prop :=
  match dls with
  | [] => True
  | dl :: r => LevelOK E l dl /\ LevelsOK E (S l) r
  end.

Lemma LevelsOK_nth E l dls : LevelsOK E l dls <-> forall i dl, nth_error dls i = Some dl -> LevelOK E (l + i) dl.
Proof.
  revert l. induction dls as [|dl r IH]; intros l; simpl.
  - split; auto. intros _ i dl H. destruct i; discriminate.
  - rewrite IH. split.
    + intros [H1 H2] [|i] dl' Hi; simpl in Hi.
      * injection Hi as <-. now rewrite Nat.add_0_r.
      * rewrite Nat.add_succ_r. now apply H2.
    + intros H. split.
      * rewrite <- (Nat.add_0_r l). now apply H.
      * intros i dl' Hi. specialize (H (S i) dl' Hi). now rewrite Nat.add_succ_r in H.
Qed.

Lemma inst_levels_spec E l dls lvs : inst_levels E l dls = inr lvs <-> LevelsOK E l dls /\ lvs = map level_of dls.
Proof.
  revert l lvs. induction dls as [|dl r IH]; intros l lvs; simpl.
  - split; [intros [= <-]; auto | now intros [_ ->]].
  - split.
    + destruct (inst_level E l dl) as [e|L] eqn:El; [discriminate|]. apply inst_level_spec in El as [H1 ->].
      destruct (inst_levels E (S l) r) as [e|Ls] eqn:Er; [discriminate|]. apply IH in Er as [H2 ->]. intros [= <-]. auto.
    + intros [[H1 H2] ->]. now rewrite (proj2 (inst_level_spec E l dl _) (conj H1 eq_refl)), (proj2 (IH (S l) _) (conj H2 eq_refl)).
Qed.

Lemma inst_levels_ok E l dls : (exists lvs, inst_levels E l dls = inr lvs) <-> LevelsOK E l dls.
Proof. exact (succeeds_iff _ _ _ (inst_levels_spec E l dls)). Qed.

Lemma inst_levels_length E l dls lvs : inst_levels E l dls = inr lvs -> length lvs = length dls.
Proof. intros H. apply inst_levels_spec in H as [_ ->]. apply map_length. Qed.

(* level_pars: user entries win over the defaults (dt_initial is always recomputed) *)
Lemma lookup_level_pars k user : NoDup (keys user) -> k <> "dt_initial" ->
  lookup k (level_pars user) = match lookup k user with Some v => Some v | None => lookup k level_defaults end.
Proof.
  intros ND N. unfold level_pars. rewrite lookup_dset, (proj2 (String.eqb_neq _ _) N). now apply lookup_dupdate.
Qed.

Definition PreOK (cp : dict atom) : Prop :=
  has "predict" cp = false /\ is_int (lookup_or "logger_level" cp (AInt 20)) = true.

(* a cascade of guarded errors passes exactly when every guard is false *)
Lemma guard_iff (c : bool) (e : err) k (P Q : Prop) :
  (c = false <-> P) -> (k = None <-> Q) -> (if c then Some e else k) = None <-> P /\ Q.
Proof.
  intros H1 H2. destruct c; [|tauto]. split; [discriminate | intros [H _]]. apply H1 in H. discriminate H.
Qed.

Lemma orelse_iff (a b : option err) (P Q : Prop) :
  (a = None <-> P) -> (b = None <-> Q) -> match a with Some e => Some e | None => b end = None <-> P /\ Q.
Proof. intros H1 H2. destruct a; [|tauto]. split; [discriminate | intros [H _]]. apply H1 in H. discriminate H. Qed.

Lemma guard_tail (c : bool) (e : err) k : (if c then Some e else k) = None -> k = None.
Proof. now destruct c. Qed.

Lemma orelse_tail (a b : option err) : match a with Some e => Some e | None => b end = None -> b = None.
Proof. now destruct a. Qed.

Lemma and_refl_l {A} (a : A) (P Q : Prop) : (P <-> Q) -> (P <-> a = a /\ Q).
Proof. intros H. split; [intros HP; split; [reflexivity | now apply H] | intros [_ HQ]; now apply H]. Qed.

Lemma guard_last (c : bool) (e : err) (P : Prop) : (c = false <-> P) -> (if c then Some e else None) = None <-> P.
Proof. intros H. destruct c; [|tauto]. split; [discriminate | intros HP]. apply H in HP. discriminate HP. Qed.

Lemma pre_checks_ok cp : pre_checks cp = None <-> PreOK cp.
Proof. unfold pre_checks, PreOK. apply guard_iff; [reflexivity|]. apply guard_last, negb_false_iff. Qed.

Definition coarsest (lvs : list level_inst) : level_inst := last lvs (Build_level_inst ANone ANone [] [] [] true).

Definition PostOK (nprocs : nat) (cp : dict atom) (d : descr) (lvs : list level_inst) : Prop :=
  (truthy_atom (lookup_or "dump_setup" cp (ABool true)) = true -> has "step_params" d = true) /\
  (1 < nprocs -> 1 < length lvs -> forall L, In L lvs -> lv_right_is_node L = true) /\
  (1 < length lvs -> int_gt1 (lookup_or "nsweeps" (lv_lp (coarsest lvs)) ANone) = false).

Lemma guard_dump (t h : bool) : t && negb h = false <-> (t = true -> h = true).
Proof. destruct t, h; simpl; intuition congruence. Qed.

Lemma guard_right_node n m {A} (f : A -> bool) l :
  (1 <? n)%nat && (1 <? m)%nat && negb (forallb f l) = false <-> (1 < n -> 1 < m -> forall x, In x l -> f x = true).
Proof.
  rewrite <- forallb_forall. destruct (Nat.ltb_spec 1 n), (Nat.ltb_spec 1 m), (forallb f l); simpl;
    split; auto; lia.
Qed.

Lemma guard_sweeps m (b : bool) : (1 <? m)%nat && b = false <-> (1 < m -> b = false).
Proof. destruct (Nat.ltb_spec 1 m); simpl; [tauto | split; [lia | reflexivity]]. Qed.

Lemma post_checks_ok nprocs cp d lvs : post_checks nprocs cp d lvs = None <-> PostOK nprocs cp d lvs.
Proof.
  unfold post_checks, PostOK. fold (coarsest lvs).
  apply guard_iff; [apply guard_dump|]. apply guard_iff; [apply guard_right_node|]. apply guard_last, guard_sweeps.
Qed.

Definition known_predict (pt : atom) : bool :=
  is_none pt || atom_eqb pt (AStr "fine_only") || atom_eqb pt (AStr "pfasst_burnin").

(* faithful version: what the code checks on first use.  nprocs does not occur: first_use asks for it only
   together with a missing dt, which is an error on every path anyway. *)
Definition UseOK (nprocs : nat) (cp : dict atom) (d : descr) (lvs : list level_inst) : Prop :=
  match lvs with
  | [] => True
  | L0 :: coarse =>
      (forall L, In L lvs -> dt_none L = false) /\
      in_names (lookup_or "initial_guess" (lv_sp L0) ANone) initial_guesses = true /\
      (coarse <> [] -> known_predict (lookup_or "predict_type" cp ANone) = true) /\
      in_names (lookup_or "residual_type" (lv_lp L0) ANone) residual_types = true /\
      exists m, step_maxiter d = AInt m /\
        ((0 < m)%Z -> forall L, In L coarse -> in_names (lookup_or "residual_type" (lv_lp L) ANone) residual_types = true)
  end.

Lemma check_residual_types_None l lvs :
  check_residual_types l lvs = None <-> forall L, In L lvs -> in_names (lookup_or "residual_type" (lv_lp L) ANone) residual_types = true.
Proof.
  revert l. induction lvs as [|L r IH]; intros l; simpl.
  - split; [intros _ L []|reflexivity].
  - destruct (in_names _ residual_types) eqn:E.
    + rewrite IH. split; [intros H L' [<-|H']; auto | intros H L' H'; auto].
    + split; [discriminate|]. intros H. specialize (H L (or_introl eq_refl)). congruence.
Qed.

Lemma existsb_false_forall {A} (f : A -> bool) l : existsb f l = false <-> forall x, In x l -> f x = false.
Proof.
  induction l; simpl; [split; [intros _ x []|reflexivity]|]. rewrite orb_false_iff, IHl.
  split; [intros [H1 H2] x [<-|H]; auto | intros H; split; auto].
Qed.

Lemma first_use_ok nprocs cp d lvs : first_use nprocs cp d lvs = None <-> UseOK nprocs cp d lvs.
Proof.
  unfold first_use, UseOK. destruct lvs as [|L0 coarse]; [tauto|]. cbv zeta.
  set (ig := lookup_or _ (lv_sp L0) ANone). set (pt := lookup_or _ cp ANone). clearbody ig pt.
  etransitivity; [|apply and_iff_compat_r, existsb_false_forall].
  generalize (existsb dt_none (L0 :: coarse)) as nodt. intros [|].
  - (* some dt is None: an error at the latest after the predictor *)
    split; [intros H | intros [H _]; discriminate H].
    do 3 apply guard_tail in H. apply orelse_tail in H. discriminate H.
  - (* dt on every level: the tests for it are void, the others are those of UseOK, in this order *)
    rewrite !andb_false_r. cbv iota. apply and_refl_l.
    apply guard_iff; [apply negb_false_iff|]. apply orelse_iff; [|apply orelse_iff].
    + unfold known_predict. destruct coarse; [split; [congruence | reflexivity]|].
      destruct (is_none _); simpl; [split; reflexivity|]. destruct (atom_eqb _ _ || atom_eqb _ _); [split; reflexivity|].
      (* [discriminate H] leaves the premise of H, that the tail is not empty *)
      destruct (atom_eqb _ _); (split; [discriminate | intros H; discriminate H; discriminate]).
    + simpl. destruct (in_names _ _); [split; reflexivity | split; discriminate].
    + destruct (step_maxiter d) as [m| | | | |]; try (split; [discriminate | intros (m0 & H & _); discriminate H]).
      destruct (Z.leb_spec m 0).
      * split; [intros _; exists m; split; [reflexivity | intros; lia] | reflexivity].
      * rewrite check_residual_types_None.
        split; [intros H'; exists m; auto | intros (m0 & [= <-] & H'); apply H'; lia].
Qed.

(* the faithful notion of a well-formed setup *)
Definition WellFormed (E : env) (nprocs : nat) (cp : dict atom) (d : descr) : Prop :=
  PreOK cp /\ DescrOK d /\
  exists dls lvs, gen_hier d = inr dls /\ LevelsOK E 0 dls /\ inst_levels E 0 dls = inr lvs /\
                  PostOK nprocs cp d lvs /\ UseOK nprocs cp d lvs.

Lemma build_Built E nprocs cp d lvs : build E nprocs cp d = Built lvs <->
  pre_checks cp = None /\ exists dls, gen_hier d = inr dls /\ inst_levels E 0 dls = inr lvs /\
    post_checks nprocs cp d lvs = None /\ first_use nprocs cp d lvs = None.
Proof.
  unfold build. split.
  - destruct (pre_checks cp); [discriminate|]. destruct (gen_hier d) as [e|dls]; [discriminate|].
    destruct (inst_levels E 0 dls) as [e|lvs'] eqn:Ei; [discriminate|].
    destruct (post_checks nprocs cp d lvs') eqn:Ep; [discriminate|]. destruct (first_use nprocs cp d lvs') eqn:Eu; [discriminate|].
    intros [= <-]. split; [reflexivity|]. exists dls. auto.
  - intros (-> & dls & -> & -> & -> & ->). reflexivity.
Qed.

Theorem validate_complete_partial E nprocs cp d :
  (exists lvs, build E nprocs cp d = Built lvs) <-> WellFormed E nprocs cp d.
Proof.
  unfold WellFormed. split.
  - intros [lvs H]. apply build_Built in H as (Hp & dls & Hg & Hi & Hc & Hu).
    split; [now apply pre_checks_ok|]. split; [apply gen_hier_complete; eauto|]. exists dls, lvs.
    split; [exact Hg|]. split; [apply inst_levels_ok; eauto|]. split; [exact Hi|].
    split; [now apply post_checks_ok | now apply first_use_ok].
  - intros (Hp & _ & dls & lvs & Hg & _ & Hi & Hc & Hu). exists lvs. apply build_Built.
    split; [now apply pre_checks_ok|]. exists dls. split; [exact Hg|]. split; [exact Hi|].
    split; [now apply post_checks_ok | now apply first_use_ok].
Qed.

Definition classified (ph : phase) (o : option err) : Prop :=
  match o with Some e => fst e = exn_of_reason (snd e) /\ phase_of_reason (snd e) = ph | None => True end.

Definition failure {A} (r : err + A) : option err := match r with inl e => Some e | inr _ => None end.

(* In the walks below every leaf is either no error or a literal (class, reason) pair: [now split] checks it. *)

Lemma pre_checks_classified cp : classified Construct (pre_checks cp).
Proof. unfold pre_checks. destruct (has _ cp); [now split|]. destruct (negb _); now split. Qed.

Lemma gen_hier_classified d : classified Construct (failure (gen_hier d)).
Proof.
  unfold gen_hier. set (t := truthy_dval _). clearbody t.
  destruct (check_deprecated d) as [e|] eqn:E1; [destruct (check_deprecated_Some E1) as [k ->]; now split|].
  destruct (check_essential d) as [e|] eqn:E2; [destruct (check_essential_Some E2) as [k ->]; now split|].
  do 4 (destruct (dict_to_list _); [|now split]). destruct (_ && _); now split.
Qed.

Lemma inst_sweeper_classified E l user : classified Construct (failure (inst_sweeper E l user)).
Proof.
  rewrite inst_sweeper_eq. destruct (lookup _ user) as [[z| | | | |]|]; try now split.
  destruct (z <=? 0)%Z; [now split|]. do 3 (destruct (negb _); [now split|]). now split.
Qed.

Lemma inst_problem_classified E l c pp : classified Construct (inst_problem E l c pp).
Proof.
  unfold inst_problem. destruct c; try now split.
  destruct (find _ (e_pkeys E)) as [[? allowed]|]; [|now split]. destruct (find _ (keys pp)); now split.
Qed.

Lemma inst_level_classified E l dl : classified Construct (failure (inst_level E l dl)).
Proof.
  unfold inst_level.
  pose proof (inst_sweeper_classified E l (oval_dict (lookup "sweeper_params" dl))) as Hs.
  destruct (inst_sweeper E l _) as [e|[sp rn]]; [exact Hs|clear Hs].
  pose proof (inst_problem_classified E l (oval_atom (lookup "problem_class" dl)) (oval_dict (lookup "problem_params" dl))) as Hp.
  destruct (inst_problem E l _ _); [exact Hp|clear Hp].
  destruct (0 <? l)%nat; [|now split]. unfold inst_transfer. destruct (_ || _); now split.
Qed.

Lemma inst_levels_classified E l dls : classified Construct (failure (inst_levels E l dls)).
Proof.
  revert l. induction dls as [|dl r IH]; intros l; simpl; [now split|].
  pose proof (inst_level_classified E l dl) as Hl. destruct (inst_level E l dl); [exact Hl|].
  specialize (IH (S l)). now destruct (inst_levels E (S l) r).
Qed.

Lemma post_checks_classified nprocs cp d lvs : classified Construct (post_checks nprocs cp d lvs).
Proof.
  unfold post_checks. destruct (_ && negb (has _ d)); [now split|].
  destruct (_ && negb (forallb _ _)); [now split|]. destruct (_ && int_gt1 _); now split.
Qed.

Lemma check_residual_types_classified l lvs : classified FirstUse (check_residual_types l lvs).
Proof. revert l. induction lvs as [|L r IH]; intros l; simpl; [now split|]. destruct (in_names _ _); [apply IH | now split]. Qed.

Lemma classified_orelse ph (a b : option err) :
  classified ph a -> classified ph b -> classified ph (match a with Some e => Some e | None => b end).
Proof. now destruct a. Qed.

Lemma first_use_classified nprocs cp d lvs : classified FirstUse (first_use nprocs cp d lvs).
Proof.
  unfold first_use. destruct lvs as [|L0 coarse]; [now split|].
  cbv zeta. generalize (existsb dt_none (L0 :: coarse)) as nodt. intros nodt.
  set (ig := lookup_or _ (lv_sp L0) ANone). set (pt := lookup_or _ cp ANone). clearbody ig pt.
  destruct (_ && nodt); [now split|]. destruct (negb _); [now split|]. destruct (_ && nodt); [now split|].
  apply classified_orelse.
  - destruct coarse; [now split|]. destruct (is_none _); [now split|].
    destruct (_ || _); [now destruct nodt|]. destruct (atom_eqb _ _); now split.
  - destruct nodt; [now split|]. apply classified_orelse; [apply check_residual_types_classified|].
    destruct (step_maxiter d); try now split. destruct (_ <=? 0)%Z; [now split | apply check_residual_types_classified].
Qed.

Lemma rejected_classified ph e ph' x r : classified ph (Some e) ->
  Rejected ph (fst e) (snd e) = Rejected ph' x r -> x = exn_of_reason r /\ ph' = phase_of_reason r.
Proof. intros [A B] [= <- <- <-]. auto. Qed.

(* every rejection carries the exception class and the phase that belong to the fault that was found *)
Theorem rejection_class E nprocs cp d ph e r :
  build E nprocs cp d = Rejected ph e r -> e = exn_of_reason r /\ ph = phase_of_reason r.
Proof.
  unfold build.
  pose proof (pre_checks_classified cp) as H1. destruct (pre_checks cp); [now apply rejected_classified|clear H1].
  pose proof (gen_hier_classified d) as H2. destruct (gen_hier d) as [?|dls]; [now apply rejected_classified|clear H2].
  pose proof (inst_levels_classified E 0 dls) as H3.
  destruct (inst_levels E 0 dls) as [?|lvs]; [now apply rejected_classified|clear H3].
  pose proof (post_checks_classified nprocs cp d lvs) as H4.
  destruct (post_checks nprocs cp d lvs); [now apply rejected_classified|clear H4].
  pose proof (first_use_classified nprocs cp d lvs) as H5.
  destruct (first_use nprocs cp d lvs); [now apply rejected_classified|discriminate].
Qed.

Lemma build_hier_fail E nprocs {cp d x r} : PreOK cp -> gen_hier d = inl (x, r) ->
  build E nprocs cp d = Rejected Construct x r.
Proof. intros Hp Hg. apply pre_checks_ok in Hp. unfold build. now rewrite Hp, Hg. Qed.

(* strict reading of the property: every name is checked whether or not it is ever used *)
Definition WellFormedStrict (E : env) (nprocs : nat) (cp : dict atom) (d : descr) : Prop :=
  WellFormed E nprocs cp d /\
  known_predict (lookup_or "predict_type" cp ANone) = true /\
  forall lvs, build E nprocs cp d = Built lvs ->
    forall L, In L lvs -> in_names (lookup_or "initial_guess" (lv_sp L) ANone) initial_guesses = true /\
                          in_names (lookup_or "residual_type" (lv_lp L) ANone) residual_types = true.

(* the names the strict reading asks about, as a test on what build returned *)
Definition strict_names (cp : dict atom) (lvs : list level_inst) : bool :=
  known_predict (lookup_or "predict_type" cp ANone) &&
  forallb (fun L => in_names (lookup_or "initial_guess" (lv_sp L) ANone) initial_guesses &&
                    in_names (lookup_or "residual_type" (lv_lp L) ANone) residual_types) lvs.

Lemma strict_refuted E nprocs cp d :
  match build E nprocs cp d with Built lvs => strict_names cp lvs = false | Rejected _ _ _ => False end ->
  exists lvs, build E nprocs cp d = Built lvs /\ ~ WellFormedStrict E nprocs cp d.
Proof.
  unfold WellFormedStrict. destruct (build E nprocs cp d) as [lvs|]; [|contradiction].
  intros H. exists lvs. split; [reflexivity|]. intros (_ & Hk & Hn). specialize (Hn lvs eq_refl).
  unfold strict_names in H. rewrite Hk in H. simpl in H.
  rewrite (proj2 (forallb_forall _ lvs)) in H; [discriminate|].
  intros L HL. destruct (Hn L HL) as [-> ->]. reflexivity.
Qed.

Definition E_ex : env :=
  {| e_quad := ["GAUSS"; "RADAU-RIGHT"]; e_node := ["LEGENDRE"]; e_QI := ["IE"; "LU"]; e_pkeys := [(3, ["lambdas"; "u0"])] |}.

Definition d_ex : descr :=
  [("problem_class", DV (Scalar (AObj 3))); ("sweeper_class", DV (Scalar (AObj 4)));
   ("problem_params", DD [("lambdas", Scalar (AObj 5))]);
   ("sweeper_params", DD [("num_nodes", Scalar (AInt 3)); ("quad_type", Scalar (AStr "RADAU-RIGHT"))]);
   ("level_params", DD [("dt", Scalar (AFlt 1 (-3)))]); ("step_params", DD [("maxiter", Scalar (AInt 2))])].

(* two levels, the coarse one with an unknown initial guess: accepted, against the strict reading *)
Definition d_ex2 : descr :=
  [("problem_class", DV (Scalar (AObj 3))); ("sweeper_class", DV (Scalar (AObj 4)));
   ("space_transfer_class", DV (Scalar (AObj 6)));
   ("problem_params", DD [("lambdas", PList [AObj 5; AObj 7])]);
   ("sweeper_params", DD [("num_nodes", PList [AInt 3; AInt 2]); ("quad_type", Scalar (AStr "RADAU-RIGHT"));
                          ("initial_guess", PList [AStr "spread"; AStr "bogus"])]);
   ("level_params", DD [("dt", Scalar (AFlt 1 (-3)))]); ("step_params", DD [("maxiter", Scalar (AInt 2))])].

(* non-vacuity of validate_complete_partial: a well-formed setup exists *)
Example wellformed_example : WellFormed E_ex 2 [("logger_level", AInt 30)] d_ex.
Proof. apply validate_complete_partial. eexists. vm_compute. reflexivity. Qed.


Lemma insert_by_perm x l : Permutation (insert_by x l) (x :: l).
Proof.
  induction l as [|y r IH]; simpl; auto. destruct (fst x <? fst y)%Z; auto.
  rewrite IH. apply perm_swap.
Qed.

Lemma map_snd_combine {A B} (l : list A) (l' : list B) : length l = length l' -> map snd (combine l l') = l'.
Proof. revert l'. induction l; destruct l'; simpl; intros H; try discriminate; auto. f_equal. auto. Qed.

Lemma map_fst_combine {A B} (l : list A) (l' : list B) : length l = length l' -> map fst (combine l l') = l.
Proof. revert l'. induction l; destruct l'; simpl; intros H; try discriminate; auto. f_equal. auto. Qed.

Definition sorted_pairs (ks : list Z) : list (Z * nat) :=
  fold_left (fun acc x => insert_by x acc) (combine ks (seq 0 (length ks))) [].

Lemma sorted_pairs_perm ks : Permutation (sorted_pairs ks) (combine ks (seq 0 (length ks))).
Proof.
  unfold sorted_pairs. rewrite <- (app_nil_r (combine _ _)) at 2. generalize (@nil (Z * nat)).
  induction (combine ks _) as [|x xs IH]; intros acc; simpl; [reflexivity|].
  rewrite IH, insert_by_perm. symmetry. apply Permutation_middle.
Qed.

(* the call order is a permutation of the indices *)
Theorem argsort_perm ks : Permutation (argsort ks) (seq 0 (length ks)).
Proof.
  unfold argsort. fold (sorted_pairs ks). rewrite (Permutation_map snd (sorted_pairs_perm ks)).
  rewrite map_snd_combine; auto. now rewrite seq_length.
Qed.

Definition le_fst (a b : Z * nat) : Prop := (fst a <= fst b)%Z.

Lemma insert_by_sorted x l : Sorted le_fst l -> Sorted le_fst (insert_by x l).
Proof.
  induction l as [|y r IH]; simpl; intros H.
  - repeat constructor.
  - inversion H as [|? ? Hs Hh]; subst. destruct (Z.ltb_spec (fst x) (fst y)).
    + constructor; [assumption|]. constructor. unfold le_fst. lia.
    + constructor; [now apply IH|]. destruct r as [|z r]; simpl; [constructor; unfold le_fst; lia|].
      destruct (fst x <? fst z)%Z; constructor; [unfold le_fst; lia | now inversion Hh].
Qed.

Lemma sorted_pairs_sorted ks : Sorted le_fst (sorted_pairs ks).
Proof. unfold sorted_pairs. apply fold_left_inv; [intros; now apply insert_by_sorted | constructor]. Qed.

Lemma Sorted_map_fst l : Sorted le_fst l -> Sorted Z.le (map fst l).
Proof.
  induction 1 as [|a l Hs IH Hh]; simpl; constructor; auto.
  destruct Hh; simpl; constructor; auto.
Qed.

Lemma In_combine_seq (ks : list Z) a k i : In (k, i) (combine ks (seq a (length ks))) -> a <= i /\ nth_error ks (i - a) = Some k.
Proof.
  revert a. induction ks as [|k0 ks IH]; intros a; simpl; [tauto|].
  intros [[= -> ->]|H].
  - now rewrite Nat.sub_diag.
  - apply IH in H. destruct H as [H1 H2]. split; [lia|]. replace (i - a) with (S (i - S a)) by lia. exact H2.
Qed.

Definition opt_list {A} (o : option A) : list A := match o with Some c => [c] | None => [] end.
Definition take {A} (l : list A) (idx : list nat) : list A := flat_map (fun i => opt_list (nth_error l i)) idx.

Lemma map_take {A B} (f : A -> B) l idx : map f (take l idx) = take (map f l) idx.
Proof.
  unfold take. induction idx as [|i idx IH]; simpl; [reflexivity|].
  rewrite map_app, IH, nth_error_map. now destruct (nth_error l i).
Qed.

Lemma take_seq {A} (l : list A) : take l (seq 0 (length l)) = l.
Proof.
  unfold take. enough (G : forall a, flat_map (fun i => opt_list (nth_error l (i - a))) (seq a (length l)) = l).
  { rewrite <- (G 0) at 2. apply flat_map_ext. intros i. now rewrite Nat.sub_0_r. }
  induction l as [|x l IH]; intros a; simpl; [reflexivity|].
  rewrite Nat.sub_diag. simpl. f_equal. rewrite <- (IH (S a)) at 2.
  rewrite !flat_map_concat_map. f_equal. apply map_ext_in.
  intros i Hi. apply in_seq in Hi. now replace (i - a) with (S (i - S a)) by lia.
Qed.

(* ... along which the keys ascend *)
Theorem argsort_sorted ks : Sorted Z.le (take ks (argsort ks)).
Proof.
  unfold argsort. fold (sorted_pairs ks).
  replace (take ks (map snd (sorted_pairs ks))) with (map fst (sorted_pairs ks)).
  { apply Sorted_map_fst, sorted_pairs_sorted. }
  assert (H : forall x, In x (sorted_pairs ks) -> nth_error ks (snd x) = Some (fst x)).
  { intros [k i] Hin. apply (Permutation_in _ (sorted_pairs_perm ks)), In_combine_seq in Hin.
    simpl. now rewrite Nat.sub_0_r in Hin. }
  unfold take. induction (sorted_pairs ks) as [|x sp IH]; simpl; [reflexivity|].
  rewrite (H x), <- IH; [reflexivity | intros; apply H; now right | now left].
Qed.

Lemma cc_call_sequence_eq st : cc_call_sequence st = take st (cc_order st).
Proof. reflexivity. Qed.

(* every controller is called exactly once per pass ... *)
Theorem call_sequence_perm st : Permutation (cc_call_sequence st) st.
Proof.
  rewrite cc_call_sequence_eq. unfold cc_order, take.
  rewrite (Permutation_flat_map _ (argsort_perm (map control_order st))), map_length. apply Permutation_refl', take_seq.
Qed.

(* ... in ascending control order *)
Theorem call_sequence_sorted st : Sorted Z.le (map control_order (cc_call_sequence st)).
Proof. rewrite cc_call_sequence_eq, map_take. apply argsort_sorted. Qed.

Section cctree_induction.
  Variable P : cctree -> Prop.
  Hypothesis Hnode : forall cid defaults deps, Forall (fun pd => P (snd pd)) deps -> P (CC cid defaults deps).

  Fixpoint cctree_ind' (c : cctree) : P c :=
    match c with
    | CC cid defaults deps =>
        Hnode cid defaults deps
          ((fix go (l : list (dict atom * cctree)) : Forall (fun pd => P (snd pd)) l :=
              match l with
              | [] => Forall_nil _
              | pd :: r => Forall_cons pd (match pd as q return P (snd q) with (p, t) => cctree_ind' t end) (go r)
              end) deps)
    end.
End cctree_induction.

Fixpoint tree_ids (c : cctree) : list nat :=
  match c with CC cid _ deps => cid :: flat_map (fun pd => tree_ids (snd pd)) deps end.

Definition dep_ids (deps : list (dict atom * cctree)) : list nat := flat_map (fun pd => tree_ids (snd pd)) deps.

(* no class (transitively) depends on itself *)
Fixpoint acyclic (c : cctree) : Prop :=
  match c with
  | CC cid _ deps => ~ In cid (dep_ids deps) /\
      (fix all (l : list (dict atom * cctree)) : Prop := match l with [] => True | pd :: r => acyclic (snd pd) /\ all r end) deps
  end.

Lemma existsb_ids st cid : existsb (fun i => Nat.eqb (ci_id i) cid) st = true <-> In cid (map ci_id st).
Proof.
  rewrite existsb_exists, in_map_iff.
  split; intros [i [H1 H2]]; exists i; [apply Nat.eqb_eq in H2 | apply Nat.eqb_eq in H1]; auto.
Qed.

Lemma cc_add_unfold user mpi st passed cid defaults deps :
  cc_add user mpi st passed (CC cid defaults deps) =
  if existsb (fun i => Nat.eqb (ci_id i) cid) st then st
  else fold_left (fun s pd => cc_add user mpi s (fst pd) (snd pd)) deps st
       ++ [{| ci_id := cid;
              ci_params := dupdate cc_pars_defaults (dupdate defaults (dupdate (dset "useMPI" mpi passed) (user_params user cid))) |}].
Proof. reflexivity. Qed.

(* the conjunctions that the nested fixpoints of acyclic and tree_wf spell out *)
Lemma all_Forall {A} (P : A -> Prop) l :
  (fix all (l : list A) : Prop := match l with [] => True | x :: r => P x /\ all r end) l <-> Forall P l.
Proof. induction l as [|x l IH]; [split; constructor | rewrite Forall_cons_iff, IH; reflexivity]. Qed.

Lemma acyclic_unfold cid defaults deps :
  acyclic (CC cid defaults deps) <-> ~ In cid (dep_ids deps) /\ Forall (fun pd => acyclic (snd pd)) deps.
Proof. simpl. now rewrite (all_Forall (fun pd => acyclic (snd pd))). Qed.


(* registering a class instantiates classes of its dependency tree only (first for a list of dependencies,
   given the same of each of them) ... *)
Lemma cc_adds_ids user mpi deps :
  (forall pd, In pd deps -> forall st passed x,
     In x (map ci_id (cc_add user mpi st passed (snd pd))) -> In x (map ci_id st) \/ In x (tree_ids (snd pd))) ->
  forall st x, In x (map ci_id (fold_left (fun s pd => cc_add user mpi s (fst pd) (snd pd)) deps st)) ->
    In x (map ci_id st) \/ In x (dep_ids deps).
Proof.
  intros IH st x. apply (fold_left_inv (fun s => In x (map ci_id s) -> In x (map ci_id st) \/ In x (dep_ids deps))); [|auto].
  intros s pd Hpd Hs Hx. apply (IH pd Hpd) in Hx. destruct Hx as [Hx|Hx]; [auto|]. right. apply in_flat_map. eauto.
Qed.

Lemma cc_add_ids user mpi c : forall st passed x,
  In x (map ci_id (cc_add user mpi st passed c)) -> In x (map ci_id st) \/ In x (tree_ids c).
Proof.
  induction c as [cid defaults deps IH] using cctree_ind'. intros st passed x. rewrite cc_add_unfold.
  destruct (existsb _ st); [auto|]. rewrite map_app, in_app_iff. simpl. fold (dep_ids deps).
  intros [H|[<-|[]]]; [|auto]. rewrite Forall_forall in IH. apply (cc_adds_ids user mpi deps IH) in H. tauto.
Qed.

(* ... and, unless a class depends on itself, each of them once *)
Lemma cc_add_nodup user mpi c : forall st passed,
  acyclic c -> NoDup (map ci_id st) -> NoDup (map ci_id (cc_add user mpi st passed c)).
Proof.
  induction c as [cid defaults deps IH] using cctree_ind'. intros st passed Hac Hnd. rewrite cc_add_unfold.
  destruct (existsb _ st) eqn:Ex; [exact Hnd|].
  apply acyclic_unfold in Hac. destruct Hac as [Hc Hd]. rewrite Forall_forall in IH, Hd.
  rewrite map_app. apply NoDup_app_intro.
  - apply (fold_left_inv (fun s => NoDup (map ci_id s))); [intros s pd Hpd; apply IH; auto | exact Hnd].
  - repeat constructor. intros [].
  - intros x Hx [<-|[]]. apply (cc_adds_ids user mpi deps) in Hx; [|intros pd _ s q y; apply cc_add_ids].
    destruct Hx as [G|G]; [|auto]. apply existsb_ids in G. simpl in G. congruence.
Qed.

(* one instance per class *)
Theorem cc_build_unique user mpi classes base :
  Forall acyclic classes -> Forall acyclic base -> NoDup (map ci_id (cc_build user mpi classes base)).
Proof.
  intros H1 H2. rewrite Forall_forall in H1, H2. unfold cc_build. cbv zeta.
  apply (fold_left_inv (fun s => NoDup (map ci_id s))); [intros; apply cc_add_nodup; auto|].
  apply (fold_left_inv (fun s => NoDup (map ci_id s))); [intros; apply cc_add_nodup; auto | constructor].
Qed.

(* user-supplied parameters override the defaults and whatever a dependency passes *)
Fixpoint tree_wf (c : cctree) : Prop :=
  match c with
  | CC _ defaults deps => dict_wf defaults /\
      (fix all (l : list (dict atom * cctree)) : Prop :=
         match l with [] => True | pd :: r => (dict_wf (fst pd) /\ tree_wf (snd pd)) /\ all r end) deps
  end.

Lemma tree_wf_unfold cid defaults deps :
  tree_wf (CC cid defaults deps) <-> dict_wf defaults /\ Forall (fun pd => dict_wf (fst pd) /\ tree_wf (snd pd)) deps.
Proof. simpl. now rewrite (all_Forall (fun pd => dict_wf (fst pd) /\ tree_wf (snd pd))). Qed.

Definition overridden (user : list (nat * dict atom)) (i : ccinst) : Prop :=
  forall k v, lookup k (user_params user (ci_id i)) = Some v -> lookup k (ci_params i) = Some v.

Lemma cc_add_override user mpi c : (forall cid, dict_wf (user_params user cid)) ->
  forall st passed, tree_wf c -> dict_wf passed -> Forall (overridden user) st ->
  Forall (overridden user) (cc_add user mpi st passed c).
Proof.
  intros Hu. induction c as [cid defaults deps IH] using cctree_ind'. intros st passed Hwf Hp Hst.
  rewrite cc_add_unfold. destruct (existsb _ st); auto.
  apply tree_wf_unfold in Hwf. destruct Hwf as [Hd Hdeps]. rewrite Forall_forall in IH, Hdeps.
  apply Forall_app. split.
  - revert Hst. apply fold_left_inv. intros s pd Hpd. destruct (Hdeps pd Hpd). now apply IH.
  - constructor; [|constructor]. intros k v Hk. simpl in *.
    apply lookup_dupdate_Some; [|apply lookup_dupdate_Some; [|apply lookup_dupdate_Some; auto]].
    + apply dict_wf_dupdate. exact Hd.
    + apply dict_wf_dupdate. now apply dict_wf_dset.
Qed.

(* the statement of the property about convergence controllers, in one piece *)
Theorem controllers_sorted_unique user mpi classes base :
  Forall acyclic classes -> Forall acyclic base ->
  let st := cc_build user mpi classes base in
  NoDup (map ci_id st) /\
  Permutation (cc_order st) (seq 0 (length st)) /\
  Permutation (cc_call_sequence st) st /\
  Sorted Z.le (map control_order (cc_call_sequence st)).
Proof.
  intros H1 H2 st. split; [now apply cc_build_unique|]. split; [|split].
  - unfold cc_order. rewrite <- (map_length control_order st). apply argsort_perm.
  - apply call_sequence_perm.
  - apply call_sequence_sorted.
Qed.

(* non-vacuity: a dependency forest with a shared dependency and a user override *)
Definition cc_ex_dep : cctree := CC 7 [("control_order", AInt 90)] [].
Definition cc_ex_classes : list cctree :=
  [CC 5 [("control_order", AInt (-50))] [([("alpha", AInt 3)], cc_ex_dep)];
   CC 6 [("control_order", AInt 300)] [([], cc_ex_dep)]].
Definition cc_ex_base : list cctree := [CC 1 [("control_order", AInt 200)] []; CC 2 [("control_order", AInt 95)] [([], CC 3 [("control_order", AInt 100)] [])]].
Definition cc_ex_user : list (nat * dict atom) := [(5, []); (6, [("control_order", AInt 91)])].

Example cc_example_acyclic : Forall acyclic cc_ex_classes /\ Forall acyclic cc_ex_base.
Proof. split; repeat constructor; simpl; intuition discriminate. Qed.

Example cc_example_run :
  let st := cc_build cc_ex_user (ABool false) cc_ex_classes cc_ex_base in
  map ci_id st = [7; 5; 6; 1; 3; 2] /\ cc_order st = [1; 0; 2; 5; 4; 3] /\
  map control_order (cc_call_sequence st) = [-50; 90; 91; 95; 100; 200]%Z.
Proof. vm_compute. repeat split. Qed.

(* the acyclicity premise is needed: a class that depends on itself would be instantiated twice by
   this registration scheme (the real code would recurse for ever) *)
Example cc_cyclic_duplicates :
  map ci_id (cc_build [] ANone [CC 1 [] [([], CC 1 [] [])]] []) = [1; 1].
Proof. vm_compute. reflexivity. Qed.

Theorem frozen_rejects_undeclared o k :
  fz_frozen o = true -> ~ In k (fz_attrs o) -> ~ In k (fz_fields o) -> ~ In k (fz_class o) ->
  fz_setattr o k = inl TypeError.
Proof.
  intros Hf H1 H2 H3. apply mem_str_false in H1, H2, H3. unfold fz_setattr, fz_hasattr. now rewrite Hf, H1, H2, H3.
Qed.

Theorem frozen_accepts_declared o k :
  In k (fz_attrs o) \/ In k (fz_fields o) ->
  exists o', fz_setattr o k = inr o' /\ fz_hasattr o' k = true /\ fz_frozen o' = fz_frozen o /\ fz_attrs o' = fz_attrs o.
Proof.
  intros H. unfold fz_setattr.
  assert (X : mem_str k (fz_attrs o) || fz_hasattr o k = true).
  { unfold fz_hasattr. destruct H as [H|H]; apply mem_str_In in H; rewrite H; simpl; auto using orb_true_r. }
  rewrite X. rewrite andb_false_r. eexists. split; [reflexivity|]. unfold fz_hasattr. simpl.
  repeat split. destruct (mem_str k (fz_fields o)) eqn:E; [now rewrite E|].
  unfold mem_str. rewrite existsb_app. simpl. rewrite String.eqb_refl. simpl. now rewrite orb_true_r.
Qed.

(* an attribute declared through add_attr can be assigned afterwards, also on a frozen object *)
Theorem frozen_add_attr_then_set o k r o1 :
  fz_add_attr o k r = inr o1 -> exists o2, fz_setattr o1 k = inr o2.
Proof.
  intros H. destruct (frozen_accepts_declared o1 k) as [o2 [H2 _]]; eauto. left.
  unfold fz_add_attr in H. destruct (mem_str k (fz_attrs o)) eqn:E.
  - destruct r; [discriminate|]. injection H as <-. now apply mem_str_In.
  - injection H as <-. simpl. apply in_app_iff. right. now left.
Qed.

Theorem readonly_rejected ro k : In k ro -> rp_setattr ro k = Some ReadOnlyError.
Proof. intros H. unfold rp_setattr. apply mem_str_In in H. now rewrite H. Qed.

Theorem not_readonly_accepted ro k : ~ In k ro -> rp_setattr ro k = None.
Proof. intros H. unfold rp_setattr. apply mem_str_false in H. now rewrite H. Qed.

Lemma rp_register_gen calls ro rw :
  fold_left (fun (reg : list string * list string) (c : list string * bool) =>
               if snd c then (fst reg ++ fst c, snd reg) else (fst reg, snd reg ++ fst c)) calls (ro, rw)
  = (ro ++ flat_map fst (filter snd calls), rw ++ flat_map fst (filter (fun c => negb (snd c)) calls)).
Proof.
  revert ro rw. induction calls as [|[names [|]] calls IH]; intros ro rw; simpl; [now rewrite !app_nil_r | |];
    rewrite IH; simpl; now rewrite <- app_assoc.
Qed.

Lemma In_rp_register (calls : list (list string * bool)) names b k : In (names, b) calls -> In k names ->
  In k (if b then fst (rp_register calls) else snd (rp_register calls)).
Proof.
  intros H1 H2. unfold rp_register. rewrite rp_register_gen. simpl.
  destruct b; apply in_flat_map; eexists; (split; [apply filter_In; split; [exact H1 | reflexivity] | exact H2]).
Qed.

(* every requested class is instantiated
   The "already present" test of add_convergence_controller is EXACT class membership: identities
   (ci_id) are compared, no subclass relation enters cc_add.  An instance of a derived class never
   stands in for a requested base class: whatever the list holds, the requested class is in the list
   afterwards (and, when it is new, so are the classes its dependencies request). *)

Definition root_id (c : cctree) : nat := match c with CC cid _ _ => cid end.

Lemma cc_add_incl user mpi c : forall st passed x, In x (map ci_id st) -> In x (map ci_id (cc_add user mpi st passed c)).
Proof.
  induction c as [cid defaults deps IH] using cctree_ind'. intros st passed x Hx. rewrite cc_add_unfold.
  destruct (existsb _ st); auto. rewrite map_app, in_app_iff. left.
  revert Hx. apply (fold_left_inv (fun s => In x (map ci_id s))). rewrite Forall_forall in IH. intros s pd Hpd. now apply IH.
Qed.

Theorem cc_add_root_present user mpi st passed c : In (root_id c) (map ci_id (cc_add user mpi st passed c)).
Proof.
  destruct c as [cid defaults deps]. rewrite cc_add_unfold. simpl root_id.
  destruct (existsb _ st) eqn:Ex; [now apply existsb_ids|].
  rewrite map_app, in_app_iff. right. simpl. now left.
Qed.

Lemma cc_adds_roots user mpi {T} (tree : T -> cctree) (pf : T -> dict atom) ts st t : In t ts ->
  In (root_id (tree t)) (map ci_id (fold_left (fun s t => cc_add user mpi s (pf t) (tree t)) ts st)).
Proof.
  revert st. induction ts as [|t0 ts IH]; intros st; [intros []|]. simpl. intros [<-|H]; [|now apply IH].
  apply (fold_left_inv (fun s => In (root_id (tree t0)) (map ci_id s))); [intros; now apply cc_add_incl | apply cc_add_root_present].
Qed.

(* a derived class (7, registered first through a dependency of 5) and its base class (3): both are there *)
Example cc_derived_then_base :
  map ci_id (cc_build [(5, []); (3, [("rel_error", ABool true)])] (ABool false)
               [CC 5 [] [([], CC 7 [] [])]; CC 3 [] []] []) = [7; 5; 3].
Proof. vm_compute. reflexivity. Qed.
