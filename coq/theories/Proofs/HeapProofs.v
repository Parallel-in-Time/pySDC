(* C13 — proofs about the heap model of pySDC's data types (Model/Heap.v).
   [exec_nowrite] and [exec_setitem] say what one operation can do to a heap: every operation but __setitem__ raises, unbinds
   its name, or appends buffers and rebinds its name; __setitem__ overwrites one window.  The frame [exec_Ext], the
   invariant [wfs] (with [wf] as its weak half) and the value-semantics theorems are read off these two; then come the
   inversions of single successful operations (ufunc call, d op= y, copy, component) and the maximum norm that
   Props/C13.v builds on. *)
From Coq Require Import ZArith List Bool Arith Lia.
From PySDC Require Import Model.Heap.
Import ListNotations.

Lemma lookup_remove_other : forall n m e, n <> m -> lookup n (remove_name m e) = lookup n e.
Proof.
  induction e as [|[k v] e IH]; simpl; intros; auto.
  destruct (m =? k) eqn:E1; simpl.
  - apply Nat.eqb_eq in E1; subst. destruct (n =? k) eqn:E2; [apply Nat.eqb_eq in E2; lia | auto].
  - destruct (n =? k); auto.
Qed.
Lemma lookup_remove_same : forall n e, lookup n (remove_name n e) = None.
Proof.
  induction e as [|[k v] e IH]; simpl; auto.
  destruct (n =? k) eqn:E; auto. simpl. rewrite E. auto.
Qed.
Lemma lookup_bind_same : forall n v e, lookup n (bind n v e) = Some v.
Proof. intros. unfold bind. simpl. rewrite Nat.eqb_refl. auto. Qed.
Lemma lookup_bind_other : forall n m v e, n <> m -> lookup n (bind m v e) = lookup n e.
Proof.
  intros. unfold bind. simpl. destruct (n =? m) eqn:E; [apply Nat.eqb_eq in E; lia|].
  apply lookup_remove_other; auto.
Qed.

Lemma set_nth_length : forall A (l : list A) i x, length (set_nth l i x) = length l.
Proof. induction l; destruct i; simpl; auto. Qed.
Lemma nth_set_nth_same : forall A (l : list A) i x d, i < length l -> nth i (set_nth l i x) d = x.
Proof. induction l; destruct i; simpl; intros; try lia; auto. apply IHl. lia. Qed.
Lemma nth_set_nth_other : forall A (l : list A) i j x d, i <> j -> nth j (set_nth l i x) d = nth j l d.
Proof. induction l; destruct i; destruct j; simpl; intros; try lia; auto. Qed.

Lemma write_at_length : forall ps l cs, length (write_at l ps cs) = length l.
Proof.
  induction ps as [|p ps IH]; intros l cs; simpl; auto.
  destruct cs as [|c cs]; auto. rewrite IH. apply set_nth_length.
Qed.
Lemma nth_write_at_outside : forall ps l cs j, ~ In j ps -> nth j (write_at l ps cs) c0 = nth j l c0.
Proof.
  induction ps as [|p ps IH]; intros l cs j H; simpl; auto.
  destruct cs as [|c cs]; auto. rewrite IH by (intro; apply H; right; auto).
  apply nth_set_nth_other. intro E. apply H. left. auto.
Qed.
Lemma read_write_at : forall ps l cs, NoDup ps -> Forall (fun p => p < length l) ps -> length cs = length ps ->
  read_at (write_at l ps cs) ps = cs.
Proof.
  induction ps as [|p ps IH]; intros l cs ND F L; destruct cs as [|c cs]; simpl in *; try discriminate; auto.
  inversion ND; subst. inversion F; subst. f_equal.
  - rewrite nth_write_at_outside by auto. apply nth_set_nth_same. auto.
  - apply IH; auto.
    eapply Forall_impl; [|eauto]. simpl. intros. rewrite set_nth_length. auto.
Qed.
Lemma read_at_seq : forall l n, length l = n -> read_at l (seq 0 n) = l.
Proof.
  intros l n <-. unfold read_at. induction l; simpl; auto. f_equal. rewrite <- seq_shift, map_map. exact IHl.
Qed.
Lemma read_at_length : forall l ps, length (read_at l ps) = length ps.
Proof. intros. apply map_length. Qed.
Lemma read_at_sub : forall l idx k n, read_at l (sub idx k n) = firstn n (skipn k (read_at l idx)).
Proof. intros. unfold read_at, sub. rewrite skipn_map, firstn_map. reflexivity. Qed.
Lemma read_at_gather : forall l idx pos, Forall (fun p => p < length idx) pos ->
  read_at l (map (fun p => nth p idx 0) pos) = map (fun p => nth p (read_at l idx) c0) pos.
Proof.
  intros l idx pos F. unfold read_at. rewrite map_map. apply map_ext_in. intros p Hp.
  rewrite Forall_forall in F. specialize (F _ Hp).
  set (g := fun i => nth i l c0). change (g (nth p idx 0) = nth p (map g idx) c0).
  rewrite (nth_indep (map g idx) c0 (g 0)) by (rewrite map_length; auto).
  rewrite map_nth. reflexivity.
Qed.

Lemma write_buf_length : forall bs b ps new, length (write_buf bs b ps new) = length bs.
Proof. intros. apply set_nth_length. Qed.
(* also when b is not a buffer: then nothing is written and [nth b bs []] is empty on both sides *)
Lemma nth_write_buf : forall bs b ps new b',
  nth b' (write_buf bs b ps new) [] = if b' =? b then write_at (nth b bs []) ps new else nth b' bs [].
Proof.
  intros. unfold write_buf. destruct (Nat.eqb_spec b' b) as [->|N].
  - destruct (Nat.lt_ge_cases b (length bs)).
    + apply nth_set_nth_same. auto.
    + rewrite !(nth_overflow _ []) by (rewrite ?set_nth_length; auto).
      symmetry. apply length_zero_iff_nil, write_at_length.
  - apply nth_set_nth_other. auto.
Qed.
Lemma write_buf_buffer_length : forall bs b ps new b', length (nth b' (write_buf bs b ps new) []) = length (nth b' bs []).
Proof. intros. rewrite nth_write_buf. destruct (Nat.eqb_spec b' b) as [->|]; auto using write_at_length. Qed.
Lemma write_buf_cell_outside : forall bs b ps new b' i,
  (b' <> b \/ ~ In i ps) ->
  nth i (nth b' (write_buf bs b ps new) []) c0 = nth i (nth b' bs []) c0.
Proof.
  intros. rewrite nth_write_buf. destruct (Nat.eqb_spec b' b) as [->|]; auto.
  apply nth_write_at_outside. tauto.
Qed.
(* a successful write is read back at the written positions (distinct and inside the buffer) *)
Lemma read_after_write : forall bs b ps cells, NoDup ps -> Forall (fun p => p < length (nth b bs [])) ps ->
  length cells = length ps -> read_at (nth b (write_buf bs b ps cells) []) ps = cells.
Proof. intros. rewrite nth_write_buf, Nat.eqb_refl. apply read_write_at; auto. Qed.

Lemma sub_incl : forall (l : list nat) k n, incl (sub l k n) l.
Proof.
  intros l k n x H. unfold sub in H. rewrite <- (firstn_skipn k l). apply in_or_app. right.
  rewrite <- (firstn_skipn n (skipn k l)). apply in_or_app. left. auto.
Qed.
Lemma NoDup_app_r : forall A (l1 l2 : list A), NoDup (l1 ++ l2) -> NoDup l2.
Proof. induction l1; simpl; intros l2 H; auto. inversion H; auto. Qed.
Lemma NoDup_app_l : forall A (l1 l2 : list A), NoDup (l1 ++ l2) -> NoDup l1.
Proof.
  induction l1; simpl; intros l2 H; constructor; inversion H; subst.
  - intro I. apply H2. apply in_or_app. auto.
  - eapply IHl1; eauto.
Qed.
Lemma sub_NoDup : forall (l : list nat) k n, NoDup l -> NoDup (sub l k n).
Proof.
  intros l k n H. unfold sub. rewrite <- (firstn_skipn k l) in H. apply NoDup_app_r in H.
  rewrite <- (firstn_skipn n (skipn k l)) in H. apply NoDup_app_l in H. auto.
Qed.
Lemma sub_length : forall (l : list nat) k n, k + n <= length l -> length (sub l k n) = n.
Proof. intros. unfold sub. rewrite firstn_length, skipn_length. lia. Qed.

Definition leaves (v : value) : list arr :=
  match v with
  | VArr a => [a]
  | VPart _ p v q m => [p; v; q; m]
  | VFld _ e g => [e; g]
  | VNum _ _ => []
  end.
Definition read_value (bs : list (list cell)) (v : value) : list (list cell) := map (read_arr bs) (leaves v).
(* every array of the value lives in a buffer below nb *)
Definition wfv (nb : nat) (v : value) : Prop := Forall (fun a => a_buf a < nb) (leaves v).
Definition wf (h : heap) : Prop := forall n v, lookup n (env h) = Some v -> wfv (length (bufs h)) v.
(* every array of the value lives in a buffer from nb upwards *)
Definition freshv (nb : nat) (v : value) : Prop := Forall (fun a => nb <= a_buf a) (leaves v).

Lemma read_arr_app : forall bs extra a, a_buf a < length bs -> read_arr (bs ++ extra) a = read_arr bs a.
Proof. intros. unfold read_arr. rewrite app_nth1; auto. Qed.
Lemma read_value_app : forall bs extra v, wfv (length bs) v -> read_value (bs ++ extra) v = read_value bs v.
Proof.
  intros. unfold read_value. apply map_ext_in. intros a Ha.
  apply read_arr_app. unfold wfv in H. rewrite Forall_forall in H. auto.
Qed.
Lemma read_fresh : forall h extra i nb k dt sh n cs, nth_error extra nb = Some cs -> length cs = n ->
  read_arr (bufs h ++ extra) (fresh_arr h i nb k dt sh n) = cs.
Proof.
  intros h extra i nb k dt sh n cs E L. unfold read_arr, fresh_arr. cbn [a_buf a_idx].
  rewrite app_nth2, Nat.add_comm, Nat.add_sub, (nth_error_nth _ _ _ E) by lia. apply read_at_seq, L.
Qed.

(* strong well-formedness: every bound array's positions are pairwise distinct, lie inside its (allocated) buffer
   and are as many as its shape says *)
Definition inb (bs : list (list cell)) (a : arr) : Prop :=
  a_buf a < length bs /\ Forall (fun p => p < length (nth (a_buf a) bs [])) (a_idx a) /\
  NoDup (a_idx a) /\ length (a_idx a) = size (a_shape a).
Definition wfsv (bs : list (list cell)) (v : value) : Prop := Forall (inb bs) (leaves v).
Definition wfs (h : heap) : Prop := forall n v, lookup n (env h) = Some v -> wfsv (bufs h) v.

Lemma wfs_wf : forall h, wfs h -> wf h.
Proof. intros h W n v L. eapply Forall_impl; [|apply (W n v L)]. intros a I. apply I. Qed.
Lemma wfs_leaf : forall h n v a, wfs h -> lookup n (env h) = Some v -> In a (leaves v) -> inb (bufs h) a.
Proof. intros h n v a W L. apply Forall_forall, (W n v L). Qed.
Lemma wfs_arr : forall h n a, wfs h -> lookup n (env h) = Some (VArr a) -> inb (bufs h) a.
Proof. intros h n a W L. apply (wfs_leaf h n _ a W L). left. reflexivity. Qed.
Lemma wfsv_arr : forall bs a, inb bs a -> wfsv bs (VArr a).
Proof. intros. unfold wfsv. simpl. auto. Qed.
Lemma wfsv_part : forall bs o p v q m, inb bs p -> inb bs v -> inb bs q -> inb bs m -> wfsv bs (VPart o p v q m).
Proof. intros. unfold wfsv. simpl. auto 6. Qed.
Lemma wfsv_fld : forall bs o e g, inb bs e -> inb bs g -> wfsv bs (VFld o e g).
Proof. intros. unfold wfsv. simpl. auto. Qed.

Lemma inb_app : forall bs extra a, inb bs a -> inb (bs ++ extra) a.
Proof. unfold inb. intros bs extra a (H1 & H2 & H3 & H4). rewrite app_length, app_nth1 by auto. repeat split; auto; lia. Qed.
Lemma wfsv_app : forall bs extra v, wfsv bs v -> wfsv (bs ++ extra) v.
Proof. unfold wfsv. intros. eapply Forall_impl; [|eauto]. intros. apply inb_app. auto. Qed.
Lemma inb_write : forall bs b ps new a, inb bs a -> inb (write_buf bs b ps new) a.
Proof. unfold inb. intros. rewrite write_buf_length, write_buf_buffer_length. auto. Qed.
Lemma inb_fresh : forall h extra i nb k dt sh n cs, nth_error extra nb = Some cs -> length cs = n -> n = size sh ->
  inb (bufs h ++ extra) (fresh_arr h i nb k dt sh n).
Proof.
  intros h extra i nb k dt sh n cs E <- Hn. unfold inb, fresh_arr. cbn [a_buf a_idx a_shape].
  assert (nb < length extra) by (apply nth_error_Some; congruence).
  rewrite app_length, app_nth2, Nat.add_comm, Nat.add_sub, (nth_error_nth _ _ _ E), seq_length by lia.
  repeat split; auto using seq_NoDup; [lia|].
  apply Forall_forall. intros p Hp. apply in_seq in Hp. lia.
Qed.
Lemma inb_copy : forall h extra i nb k a, inb (bufs h) a -> nth_error extra nb = Some (read_arr (bufs h) a) ->
  inb (bufs h ++ extra) (fresh_arr h i nb k (a_dt a) (a_shape a) (length (a_idx a))).
Proof. intros h extra i nb k a I E. eapply inb_fresh; [exact E | apply read_at_length | apply I]. Qed.
(* a view: same buffer, some of the positions, each once *)
Lemma inb_view : forall bs a o k dt sh idx, inb bs a -> incl idx (a_idx a) -> NoDup idx -> length idx = size sh ->
  inb bs (mkArr o k dt sh (a_buf a) idx).
Proof.
  intros bs a o k dt sh idx (H1 & H2 & _) Hi ND L. repeat split; auto.
  cbn [a_buf a_idx]. rewrite Forall_forall in *. auto.
Qed.
Lemma inb_sub : forall bs a k n sh o kd dt, inb bs a -> k + n <= length (a_idx a) -> n = size sh ->
  inb bs (mkArr o kd dt sh (a_buf a) (sub (a_idx a) k n)).
Proof.
  intros bs a k n sh o kd dt I Hk ->. apply inb_view; auto using sub_incl, sub_length.
  apply sub_NoDup, I.
Qed.
Lemma inb_row : forall bs a n t i o k dt, inb bs a -> a_shape a = n :: t -> i < n ->
  inb bs (mkArr o k dt t (a_buf a) (sub (a_idx a) (i * size t) (size t))).
Proof.
  intros bs a n t i o k dt I Sh Hi. apply inb_sub; auto.
  replace (length (a_idx a)) with (size (a_shape a)) by (symmetry; apply I). rewrite Sh.
  change (i * size t + size t <= n * size t). replace (i * size t + size t) with ((i + 1) * size t) by lia.
  apply Nat.mul_le_mono_r. lia.
Qed.
Lemma read_arr_length : forall bs a, inb bs a -> length (read_arr bs a) = size (a_shape a).
Proof. intros bs a (H1 & H2 & H3 & H4). unfold read_arr. rewrite read_at_length. auto. Qed.

Lemma select_inb : forall bs a s sh idx, inb bs a -> select a s = inr (RegArr sh idx) ->
  forall o k dt, inb bs (mkArr o k dt sh (a_buf a) idx).
Proof.
  intros bs a s sh idx I S o k dt. pose proof I as (_ & _ & _ & H4). unfold select in S.
  destruct (a_shape a) as [|n t] eqn:Sh; [discriminate|].
  change (size (n :: t)) with (n * size t) in H4.
  destruct s as [|lo hi|i].
  - injection S as <- <-. apply inb_view; auto using incl_refl. apply I.
  - injection S as <- <-. apply inb_sub; auto.
    rewrite H4, <- Nat.mul_add_distr_r. apply Nat.mul_le_mono_r. lia.
  - destruct (i <? n) eqn:L; [|discriminate]. apply Nat.ltb_lt in L.
    destruct t as [|m t']; [discriminate|]. injection S as <- <-. apply (inb_row _ _ n); auto.
Qed.

Lemma nodupb_NoDup : forall l, nodupb l = true -> NoDup l.
Proof.
  induction l as [|x l IH]; simpl; intros H; constructor.
  - apply andb_true_iff in H. destruct H as [H _]. intro I. apply negb_true_iff in H.
    assert (existsb (Nat.eqb x) l = true) by (apply existsb_exists; exists x; split; auto; apply Nat.eqb_refl). congruence.
  - apply IH. apply andb_true_iff in H. tauto.
Qed.
Lemma view_of_spec : forall a perm sl nsh idx, view_of a perm sl = Some (nsh, idx) ->
  exists pos, idx = map (fun p => nth p (a_idx a) 0) pos /\ Forall (fun p => p < length (a_idx a)) pos /\
              NoDup idx /\ length idx = size nsh /\ nsh = map (fun x => snd x) sl.
Proof.
  intros a perm sl nsh idx. unfold view_of. cbv zeta. set (pos := map Z.to_nat _).
  destruct (_ && _ && _); [|discriminate]. destruct (forallb axis_ok _); [|discriminate].
  destruct (forallb _ _ && nodupb _ && (_ =? _)) eqn:E; [|discriminate].
  apply andb_true_iff in E. destruct E as [E E3]. apply andb_true_iff in E. destruct E as [E1 E2].
  intros H. injection H as <- <-. exists pos. split; [reflexivity|]. repeat split.
  - apply Forall_forall. intros p Hp. apply Nat.ltb_lt. exact (proj1 (forallb_forall _ _) E1 p Hp).
  - apply nodupb_NoDup, E2.
  - apply Nat.eqb_eq, E3.
Qed.
Lemma view_of_inb : forall bs a perm sl nsh idx o k dt, inb bs a -> view_of a perm sl = Some (nsh, idx) ->
  inb bs (mkArr o k dt nsh (a_buf a) idx).
Proof.
  intros bs a perm sl nsh idx o k dt I V. destruct (view_of_spec _ _ _ _ _ V) as (pos & -> & F & ND & Len & _).
  apply inb_view; auto. intros x Hx. apply in_map_iff in Hx. destruct Hx as (p & <- & Hp).
  rewrite Forall_forall in F. apply nth_In; auto.
Qed.

Lemma bcast_cells_length : forall s t cells, length (bcast_cells s t cells) = size s.
Proof. intros. unfold bcast_cells. rewrite map_length, seq_length. auto. Qed.
Lemma shape_eqb_eq : forall a b, shape_eqb a b = true -> a = b.
Proof.
  unfold shape_eqb. induction a; destruct b; simpl; intros; auto; try discriminate.
  apply andb_true_iff in H. destruct H as [L H]. apply andb_true_iff in H. destruct H as [E H].
  simpl in E. apply Nat.eqb_eq in E. subst. f_equal. apply IHa. rewrite H. simpl in L. rewrite L. auto.
Qed.
Lemma assign_cells_length : forall dt sh c ssh cells l, assign_cells dt sh c ssh cells = Some l -> length l = size sh.
Proof.
  intros. unfold assign_cells in H.
  destruct (bshape sh _); [|discriminate]. destruct (shape_eqb l0 sh); inversion H.
  rewrite map_length. apply bcast_cells_length.
Qed.

Definition wfsp (bs : list (list cell)) (p : opval) : Prop := match p with PVal v => wfsv bs v | _ => True end.
Lemma eval_operand_wfs : forall h o p, wfs h -> eval_operand h o = Some p -> wfsp (bufs h) p.
Proof.
  intros h o p W E. destruct o; simpl in E.
  - destruct (lookup n (env h)) eqn:L; simpl in E; inversion E; subst. simpl. eapply W; eauto.
  - inversion E; subst; simpl; auto.
  - inversion E; subst; simpl; auto.
Qed.
Lemma eval_args_wfs : forall h args pa, wfs h ->
  fold_right (fun o acc => match eval_operand h o, acc with Some p, Some l => Some (p :: l) | _, _ => None end) (Some []) args = Some pa ->
  Forall (wfsp (bufs h)) pa.
Proof.
  induction args as [|o args IH]; simpl; intros pa W H.
  - inversion H. constructor.
  - destruct (eval_operand h o) eqn:E; [|discriminate].
    destruct (fold_right _ _ args) eqn:F; [|discriminate]. inversion H; subst.
    constructor; [eapply eval_operand_wfs; eauto|]. apply IH; auto.
Qed.

(* a ufunc argument whose cell list has the length of its shape *)
Definition uf_ok (u : ufarg) : Prop := length (u_cells u) = size (u_shape u).
Lemma as_ufarg_ok : forall bs p u, wfsp bs p -> as_ufarg bs p = Some u -> uf_ok u.
Proof.
  intros bs p u W E. destruct p as [[a| | | ]|t c|dt sh cs]; simpl in E; try discriminate.
  - inversion E; subst. unfold uf_ok. simpl. apply read_arr_length. simpl in W. inversion W; auto.
  - inversion E; subst. reflexivity.
  - destruct (length cs =? size sh) eqn:L; inversion E; subst. apply Nat.eqb_eq in L. auto.
Qed.
Lemma ufunc_compute_length : forall f args c s cells, Forall uf_ok args -> ufunc_compute f args = Some (c, s, cells) ->
  length cells = size s.
Proof.
  intros f args c s cells F H. unfold ufunc_compute in H.
  destruct args as [|x [|y [|z t]]]; try discriminate.
  - destruct (arity f =? 1); [|discriminate]. injection H as _ <- <-. rewrite map_length. apply (Forall_inv F).
  - destruct (arity f =? 2); [|discriminate]. destruct (bshape (u_shape x) (u_shape y)); [|discriminate].
    injection H as _ <- <-. rewrite map_length, combine_length, !bcast_cells_length. apply Nat.min_id.
Qed.
Definition somes {A} (l : list (option A)) : list A := flat_map (fun o => match o with Some u => [u] | None => [] end) l.
Lemma in_somes : forall A (l : list (option A)) u, In u (somes l) <-> In (Some u) l.
Proof.
  induction l as [|[x|] l IH]; simpl; intros u; rewrite ?IH; [tauto| |].
  - split; (intros [E|]; [left; congruence | auto]).
  - split; [auto | intros [E|]; [discriminate | auto]].
Qed.
Lemma somes_ok : forall bs ps, Forall (wfsp bs) ps -> Forall uf_ok (somes (map (as_ufarg bs) ps)).
Proof.
  induction ps as [|p ps IH]; intros F; unfold somes in *; simpl; [constructor|].
  inversion F; subst. apply Forall_app. split; auto.
  destruct (as_ufarg bs p) eqn:E; [|constructor]. constructor; [|constructor]. eapply as_ufarg_ok; eauto.
Qed.
Lemma ufunc_value_inr : forall bs f a o k dt s cells, ufunc_value bs f a o = inr (k, dt, s, cells) ->
  resolve_kind (map u_kind (somes (map (as_ufarg bs) (a ++ o)))) = Some k /\
  exists c, ufunc_compute f (somes (map (as_ufarg bs) a)) = Some (c, s, cells).
Proof.
  intros bs f a o k dt s cells. unfold ufunc_value. cbv zeta. fold (somes (map (as_ufarg bs) a)) (somes (map (as_ufarg bs) o)).
  destruct (forallb _ _); [|discriminate].
  destruct (resolve_kind _) as [k'|] eqn:R; [|discriminate].
  destruct (_ =? _); [|discriminate]. destruct (uf_supported _ _); [|discriminate].
  destruct (ufunc_compute _ _) as [[[c s'] cells']|]; [|discriminate].
  intros H. injection H as <- Hdt <- <-. split; [|exists c; reflexivity].
  unfold somes. rewrite map_app, flat_map_app. exact R.
Qed.

(* What an operation other than __setitem__ does: it raises and leaves the heap alone, or unbinds its name, or appends buffers and binds its name to a value whose
   arrays are in-bounds windows of the extended store (given that the bound ones were). *)
Inductive nowrite (h : heap) (d : nat) : heap * res -> Prop :=
| nowrite_fail e : nowrite h d (fail h e)
| nowrite_bind extra v k : (wfs h -> wfsv (bufs h ++ extra) v) -> nowrite h d (ok_bind h extra d v k)
| nowrite_del : nowrite h d (mkHeap (bufs h) (noid h) (remove_name d (env h)), ROk).

Lemma nowrite_view : forall h d a k, (wfs h -> inb (bufs h) a) -> nowrite h d (ok_bind h [] d (VArr a) k).
Proof. intros h d a k Ha. apply nowrite_bind. intros W. apply wfsv_arr. rewrite app_nil_r. auto. Qed.
Lemma nowrite_num : forall h d t c, nowrite h d (ok_bind h [] d (VNum t c) 0).
Proof. intros. apply nowrite_bind. intros _. constructor. Qed.

(* case split on the first match or if of the goal; [do_bin_nowrite], [exec_setitem] and the failing branches of
   [exec_nowrite] are nothing but this, repeated: every leaf of the model function is one constructor of the relation *)
Ltac dmatch :=
  match goal with
  | |- context [match ?x with _ => _ end] => destruct x eqn:?
  | |- context [if ?x then _ else _] => destruct x eqn:?
  end.

Lemma do_ufunc_nowrite : forall h d f a o, (wfs h -> Forall (wfsp (bufs h)) a) -> nowrite h d (do_ufunc h d f a o).
Proof.
  intros h d f a o Ha. unfold do_ufunc.
  destruct (ufunc_value (bufs h) f a o) as [e|[[[k dt] s] cells]] eqn:E; [apply nowrite_fail|].
  apply nowrite_bind. intros W. apply wfsv_arr.
  eapply inb_fresh; [reflexivity..|]. destruct (ufunc_value_inr _ _ _ _ _ _ _ _ E) as [_ [c C]].
  apply (ufunc_compute_length _ _ _ _ _ (somes_ok _ _ (Ha W)) C).
Qed.
Lemma part_result_nowrite : forall h d p v q m e1 e2, (wfs h -> Forall (inb (bufs h)) [p; v; q; m]) ->
  nowrite h d (part_result h d p v q m e1 e2).
Proof.
  intros h d p v q m e1 e2 Hx. unfold part_result. repeat dmatch; try apply nowrite_fail.
  apply nowrite_bind. intros W. pose proof (proj1 (Forall_forall _ _) (Hx W)) as Hl.
  apply wfsv_part; [| | apply inb_app, Hl; simpl; auto ..];
    (eapply inb_fresh; [reflexivity..|]; eapply assign_cells_length; eauto).
Qed.
Lemma fld_result_nowrite : forall h d e g e1 e2, nowrite h d (fld_result h d e g e1 e2).
Proof.
  intros. unfold fld_result. repeat dmatch; try apply nowrite_fail.
  apply nowrite_bind. intros _.
  apply wfsv_fld; (eapply inb_fresh; [reflexivity..|]; eapply assign_cells_length; eauto).
Qed.
Lemma do_bin_nowrite : forall h d f x y, (wfs h -> wfsp (bufs h) x) -> (wfs h -> wfsp (bufs h) y) ->
  nowrite h d (do_bin h d f x y).
Proof.
  intros h d f x y Hx Hy. unfold do_bin.
  destruct x as [[ | | | ]| | ], y as [[ | | | ]| | ];
    repeat first [apply nowrite_fail | apply fld_result_nowrite | apply part_result_nowrite; assumption
                 | apply do_ufunc_nowrite; auto | dmatch].
Qed.

Lemma exec_nowrite : forall h o, is_setitem o = false -> nowrite h (dst o) (exec h o).
Proof.
  intros h o Hs. destruct o; try discriminate Hs; cbn [dst]; unfold exec.
  - (* ONew *) destruct (is_meshclass k); [|apply nowrite_fail]. apply nowrite_bind. intros _. apply wfsv_arr.
    eapply inb_fresh; [reflexivity | apply repeat_length | reflexivity].
  - (* ONewPart *) apply nowrite_bind. intros _.
    apply wfsv_part; (eapply inb_fresh; [reflexivity | apply repeat_length | simpl; lia]).
  - (* ONewFld *) apply nowrite_bind. intros _.
    apply wfsv_fld; (eapply inb_fresh; [reflexivity | apply repeat_length | reflexivity]).
  - (* OCopy *) destruct (lookup s (env h)) as [v|] eqn:L; [|apply nowrite_fail].
    destruct k as [k| | ], v as [a|o p v q m|o e g|t c]; repeat dmatch; try apply nowrite_fail;
      apply nowrite_bind; intros W; [apply wfsv_arr | apply wfsv_part | apply wfsv_fld];
      (eapply inb_copy; [apply (wfs_leaf _ _ _ _ W L); simpl; auto | reflexivity]).
  - (* OAssign *) destruct (lookup s (env h)) as [v|] eqn:L; [|apply nowrite_fail].
    apply nowrite_bind. intros W. apply wfsv_app, (W _ _ L).
  - (* OUfunc *) destruct (fold_right _ _ args) as [pa|] eqn:F; [|apply nowrite_fail].
    dmatch; [|apply nowrite_fail]. apply do_ufunc_nowrite. intros W. apply (eval_args_wfs _ _ _ W F).
  - (* OBin *) destruct (eval_operand h x) as [px|] eqn:Ex; [|apply nowrite_fail].
    destruct (eval_operand h y) as [py|] eqn:Ey; [|apply nowrite_fail].
    apply do_bin_nowrite; intros W; eapply eval_operand_wfs; eauto.
  - (* OUn *) destruct (eval_operand h x) as [[[a| | | ]| | ]|] eqn:Ex; try apply nowrite_fail.
    destruct (arity f =? 1); [|apply nowrite_fail].
    apply do_ufunc_nowrite. intros W. constructor; [|constructor]. apply (eval_operand_wfs _ _ _ W Ex).
  - (* OIop *) destruct (lookup d (env h)) as [v|] eqn:L; [|apply nowrite_fail].
    destruct (eval_operand h y) as [py|] eqn:Ey; [|destruct v; apply nowrite_fail].
    assert (Hv : wfs h -> wfsp (bufs h) (PVal v)) by (intros W; apply (W _ _ L)).
    assert (Hy : wfs h -> wfsp (bufs h) py) by (intros W; apply (eval_operand_wfs _ _ _ W Ey)).
    destruct v as [a| | | ]; try (apply do_bin_nowrite; assumption); [|apply nowrite_fail].
    destruct py as [[ | | | ]| | ]; try apply nowrite_fail;
      (destruct (arity f =? 2); [|apply nowrite_fail]); apply do_ufunc_nowrite; auto.
  - (* OGet *) destruct (lookup s (env h)) as [[a| | | ]|] eqn:L; try apply nowrite_fail.
    destruct (select a sl) as [e|[sh idx|off]] eqn:S; [apply nowrite_fail| |apply nowrite_num].
    apply nowrite_view. intros W. apply (select_inb _ _ _ _ _ (wfs_arr _ _ _ W L) S).
  - (* OComp *) destruct (lookup s (env h)) as [[a|o p v q m|o e g|t cc]|] eqn:L; try apply nowrite_fail.
    + destruct (is_multi (a_kind a) && (c <? 2)) eqn:M; [|apply nowrite_fail].
      apply andb_true_iff in M. destruct M as [_ Hc]. apply Nat.ltb_lt in Hc.
      destruct (a_shape a) as [|[|[|[|n]]] [|m t]] eqn:Sh; try apply nowrite_fail.
      apply nowrite_view. intros W. apply (inb_row _ _ 2); auto. apply (wfs_arr _ _ _ W L).
    + destruct c as [|[|[|[|c]]]]; try apply nowrite_fail;
        apply nowrite_view; intros W; apply (wfs_leaf _ _ _ _ W L); simpl; auto 6.
    + destruct c as [|[|c]]; try apply nowrite_fail;
        apply nowrite_view; intros W; apply (wfs_leaf _ _ _ _ W L); simpl; auto.
  - (* OAbs *) repeat dmatch; try apply nowrite_fail; apply nowrite_num.
  - (* OMethCopy *) destruct (lookup s (env h)) as [[a| | | ]|] eqn:L; try apply nowrite_fail.
    apply nowrite_bind. intros W. apply wfsv_arr. eapply inb_copy; [apply (wfs_arr _ _ _ W L) | reflexivity].
  - (* OSum *) repeat dmatch; try apply nowrite_fail; apply nowrite_num.
  - (* OSum0 *) repeat dmatch; try apply nowrite_fail. apply nowrite_bind. intros _. apply wfsv_arr.
    eapply inb_fresh; [reflexivity | | reflexivity]. rewrite map_length. apply seq_length.
  - (* OView *) destruct (lookup s (env h)) as [[a| | | ]|] eqn:L; try apply nowrite_fail.
    destruct (view_of a perm sl) as [[nsh idx]|] eqn:V; [|apply nowrite_fail].
    apply nowrite_view. intros W. apply (view_of_inb _ _ _ _ _ _ _ _ _ (wfs_arr _ _ _ W L) V).
  - (* ODel *) destruct (lookup d (env h)); [apply nowrite_del | apply nowrite_fail].
Qed.

Lemma exec_Ext : forall h o, is_setitem o = false ->
  (exists extra, bufs (fst (exec h o)) = bufs h ++ extra) /\
  (forall n, n <> dst o -> lookup n (env (fst (exec h o))) = lookup n (env h)).
Proof.
  intros h o Hs. destruct (exec_nowrite h o Hs) as [e|extra v k _|]; split; simpl.
  - exists []. symmetry. apply app_nil_r.
  - reflexivity.
  - eexists. reflexivity.
  - intros. apply lookup_bind_other. auto.
  - exists []. symmetry. apply app_nil_r.
  - intros. apply lookup_remove_other. auto.
Qed.

(* __setitem__: either nothing happened (an exception), or exactly one window was overwritten *)
Inductive setitem_step (h : heap) (d : nat) (s : sel) : heap * res -> Prop :=
| setitem_fail e : setitem_step h d s (h, RErr e)
| setitem_write a reg cells : lookup d (env h) = Some (VArr a) -> select a s = inr reg ->
    length cells = size (region_shape reg) ->
    setitem_step h d s (mkHeap (write_buf (bufs h) (a_buf a) (region_idx reg) cells) (noid h) (env h), ROk).
Lemma exec_setitem : forall h d s src, setitem_step h d s (exec h (OSet d s src)).
Proof.
  intros. unfold exec. repeat dmatch; try apply setitem_fail.
  all: eapply setitem_write; eauto using assign_cells_length.
Qed.

(* the lemmas below speak of [fst (exec h o)], as [exec_seq] does; this turns a hypothesis [exec h o = (h', r)] into that form *)
Lemma exec_fst : forall h o h' r, exec h o = (h', r) -> h' = fst (exec h o).
Proof. intros h o h' r E. rewrite E. reflexivity. Qed.

Lemma exec_keeps_binding : forall h o n, (is_setitem o = true \/ dst o <> n) ->
  lookup n (env (fst (exec h o))) = lookup n (env h).
Proof.
  intros h o n H. destruct (is_setitem o) eqn:S.
  - destruct o; try discriminate. destruct (exec_setitem h d s src); reflexivity.
  - destruct H as [H|H]; [discriminate|]. apply (exec_Ext h o S). auto.
Qed.
Lemma exec_seq_keeps_binding : forall ops h n, (forall o, In o ops -> is_setitem o = true \/ dst o <> n) ->
  lookup n (env (exec_seq h ops)) = lookup n (env h).
Proof. induction ops as [|o ops IH]; simpl; intros h n H; auto. rewrite IH, exec_keeps_binding; auto. Qed.
Lemma exec_seq_bufs : forall ops h, (forall o, In o ops -> is_setitem o = false) ->
  exists extra, bufs (exec_seq h ops) = bufs h ++ extra.
Proof.
  induction ops as [|o ops IH]; simpl; intros h Hs.
  - exists []. symmetry. apply app_nil_r.
  - destruct (exec_Ext h o) as [[e1 E1] _]; auto. destruct (IH (fst (exec h o))) as [e2 E2]; auto.
    exists (e1 ++ e2). rewrite E2, E1. symmetry. apply app_assoc.
Qed.

Lemma exec_wfs : forall h o, wfs h -> wfs (fst (exec h o)).
Proof.
  intros h o W. destruct (is_setitem o) eqn:Hs.
  - destruct o; try discriminate Hs. destruct (exec_setitem h d s src); [exact W|].
    intros n v L. eapply Forall_impl; [|apply (W n v L)]. intros. apply inb_write. auto.
  - destruct (exec_nowrite h o Hs) as [e|extra v k Hv|]; intros n v' L; cbn [fst ok_bind fail env bufs] in L |- *.
    + apply (W n v' L).
    + destruct (Nat.eq_dec n (dst o)) as [->|N].
      * rewrite lookup_bind_same in L. injection L as <-. auto.
      * rewrite lookup_bind_other in L by auto. apply wfsv_app, (W n v' L).
    + destruct (Nat.eq_dec n (dst o)) as [->|N].
      * rewrite lookup_remove_same in L. discriminate.
      * rewrite lookup_remove_other in L by auto. apply (W n v' L).
Qed.
Lemma exec_seq_wfs : forall ops h, wfs h -> wfs (exec_seq h ops).
Proof. induction ops; simpl; intros; auto. apply IHops. apply exec_wfs. auto. Qed.

(* every heap reachable from the empty one is well-formed: the theorems' [wf] and [wfs] hypotheses are met by every run *)
Theorem wfs_reachable : forall ops, wfs (exec_seq empty_heap ops).
Proof. intros. apply exec_seq_wfs. intros n v H. discriminate. Qed.
Theorem wf_reachable : forall ops, wf (exec_seq empty_heap ops).
Proof. intros. apply wfs_wf, wfs_reachable. Qed.

(* Value semantics: no operation other than __setitem__ changes the cells of ANY existing object, named or not
   (operands, bystanders, and the object a name is being rebound from). *)
Theorem ops_preserve_objects : forall h o v, is_setitem o = false ->
  wfv (length (bufs h)) v -> read_value (bufs (fst (exec h o))) v = read_value (bufs h) v.
Proof. intros h o v Hs Hv. destruct (exec_Ext h o Hs) as [[extra E] _]. rewrite E. apply read_value_app. auto. Qed.

Theorem ops_preserve_others : forall h o n v, wf h -> is_setitem o = false -> n <> dst o ->
  lookup n (env h) = Some v ->
  lookup n (env (fst (exec h o))) = Some v /\ read_value (bufs (fst (exec h o))) v = read_value (bufs h) v.
Proof.
  intros h o n v W Hs Hn Hl. split.
  - destruct (exec_Ext h o Hs) as [_ E]. rewrite E; auto.
  - apply ops_preserve_objects; auto. eapply W; eauto.
Qed.

(* ... lifted to sequences; only the object itself has to live in allocated buffers *)
Theorem seq_preserves_object : forall ops h n v, wfv (length (bufs h)) v ->
  (forall o, In o ops -> is_setitem o = false) -> (forall o, In o ops -> dst o <> n) ->
  lookup n (env h) = Some v ->
  lookup n (env (exec_seq h ops)) = Some v /\ read_value (bufs (exec_seq h ops)) v = read_value (bufs h) v.
Proof.
  intros ops h n v Hv Hs Hd Hl. split.
  - rewrite exec_seq_keeps_binding; auto.
  - destruct (exec_seq_bufs ops h Hs) as [extra ->]. apply read_value_app, Hv.
Qed.

Lemma do_ufunc_ok : forall h d f a o h', do_ufunc h d f a o = (h', ROk) ->
  exists k dt s cells, ufunc_value (bufs h) f a o = inr (k, dt, s, cells) /\
    h' = mkHeap (bufs h ++ [cells]) (noid h + 1) (bind d (VArr (fresh_arr h 0 0 k dt s (length cells))) (env h)).
Proof.
  intros h d f a o h' H. unfold do_ufunc in H.
  destruct (ufunc_value (bufs h) f a o) as [e|[[[k dt] s] cells]] eqn:E.
  - discriminate H.
  - injection H as <-. exists k, dt, s, cells. auto.
Qed.

Lemma first_kind_app_hit : forall p k ks, p k = true -> first_kind p (Some k :: ks) = Some k.
Proof. intros. simpl. rewrite H. auto. Qed.
Lemma first_kind_some : forall p ks k, first_kind p ks = Some k -> In (Some k) ks /\ p k = true.
Proof.
  induction ks as [|[k'|] ks IH]; simpl; intros k H; try discriminate.
  - destruct (p k') eqn:E.
    + inversion H; subst. auto.
    + destruct (IH _ H). auto.
  - destruct (IH _ H). auto.
Qed.
Lemma first_kind_exists : forall p ks k, In (Some k) ks -> p k = true -> exists k', first_kind p ks = Some k'.
Proof.
  induction ks as [|[k'|] ks IH]; simpl; intros k H Hp; [tauto| |].
  - destruct (p k') eqn:E; [eauto|]. destruct H as [H|H]; [inversion H; subst; congruence|]. eauto.
  - destruct H as [H|H]; [discriminate|]. eauto.
Qed.
Lemma resolve_kind_uniform : forall ks k, is_meshclass k = true -> In (Some k) ks ->
  (forall k', In (Some k') ks -> k' = k \/ k' = KNd) -> resolve_kind ks = Some k.
Proof.
  intros ks k Hm Hin Hall. unfold resolve_kind.
  destruct (first_kind is_submesh ks) as [k1|] eqn:E1.
  - apply first_kind_some in E1. destruct E1 as [I1 P1]. destruct (Hall _ I1); subst; auto. discriminate.
  - destruct (first_kind_exists is_meshclass ks k Hin Hm) as [k2 E2]. rewrite E2.
    apply first_kind_some in E2. destruct E2 as [I2 P2]. destruct (Hall _ I2); subst; auto. discriminate.
Qed.
(* a proper mesh subclass in first position always wins (numpy asks subclasses first, then left to right) *)
Lemma resolve_kind_head_sub : forall k ks, is_submesh k = true -> resolve_kind (Some k :: ks) = Some k.
Proof. intros. unfold resolve_kind. simpl. rewrite H. auto. Qed.

Lemma in_kinds_of_args : forall bs (ps : list opval) k,
  In (Some k) (map u_kind (somes (map (as_ufarg bs) ps))) ->
  k = KNd \/ exists a, In (PVal (VArr a)) ps /\ a_kind a = k.
Proof.
  intros bs ps k H. apply in_map_iff in H. destruct H as (u & K & I).
  apply in_somes, in_map_iff in I. destruct I as (p & E & Ip).
  destruct p as [[a| | | ]|t c|dt sh cs]; simpl in E; try discriminate.
  - injection E as <-. injection K as <-. eauto.
  - injection E as <-. discriminate.
  - destruct (length cs =? size sh); [|discriminate]. injection E as <-. injection K as <-. auto.
Qed.
Lemma kinds_of_args_in : forall bs (ps : list opval) a,
  In (PVal (VArr a)) ps -> In (Some (a_kind a)) (map u_kind (somes (map (as_ufarg bs) ps))).
Proof.
  intros bs ps a H. apply in_map_iff. eexists. split; [|apply in_somes, in_map_iff; exists (PVal (VArr a)); split; [reflexivity | exact H]].
  reflexivity.
Qed.

(* operators on arrays are ufunc calls *)
Lemma exec_bin_arrays : forall h d f x y ax ay, lookup x (env h) = Some (VArr ax) -> lookup y (env h) = Some (VArr ay) ->
  arity f = 2 -> exec h (OBin d f (ON x) (ON y)) = do_ufunc h d f [PVal (VArr ax); PVal (VArr ay)] [].
Proof. intros. unfold exec, eval_operand. rewrite H, H0. simpl. rewrite H1. auto. Qed.
Lemma exec_bin_scalar : forall h d f x t c ax, lookup x (env h) = Some (VArr ax) ->
  arity f = 2 -> exec h (OBin d f (ON x) (OS t c)) = do_ufunc h d f [PVal (VArr ax); PScal t c] []
              /\ exec h (OBin d f (OS t c) (ON x)) = do_ufunc h d f [PScal t c; PVal (VArr ax)] [].
Proof. intros. unfold exec, eval_operand. rewrite H. simpl. rewrite H0. auto. Qed.
Lemma exec_iop_ok : forall h d f y h' a, exec h (OIop d f y) = (h', ROk) -> lookup d (env h) = Some (VArr a) ->
  exists py, eval_operand h y = Some py /\ do_ufunc h d f [PVal (VArr a); py] [PVal (VArr a)] = (h', ROk).
Proof.
  intros h d f y h' a H L. unfold exec in H. rewrite L in H.
  destruct (eval_operand h y) as [py|]; [|discriminate H]. exists py. split; [reflexivity|].
  destruct py as [[ | | | ]| | ]; try discriminate H; (destruct (arity f =? 2); [exact H | discriminate H]).
Qed.

Theorem setitem_preserves_other_buffers : forall h d s src h' r a, exec h (OSet d s src) = (h', r) ->
  lookup d (env h) = Some (VArr a) -> forall a2, a_buf a2 <> a_buf a -> read_arr (bufs h') a2 = read_arr (bufs h) a2.
Proof.
  intros h d s src h' r a H L a2 N. pose proof (exec_setitem h d s src) as X. rewrite H in X.
  inversion X as [e|a' reg cells L' _ _]; auto.
  rewrite L in L'. injection L' as <-. apply map_ext_in. intros i _. apply write_buf_cell_outside. auto.
Qed.

Lemma exec_copy_fresh : forall h d ck s h' v, exec h (OCopy d ck s) = (h', ROk) -> lookup s (env h) = Some v ->
  exists v' extra k, h' = mkHeap (bufs h ++ extra) (noid h + k) (bind d v' (env h)) /\
    freshv (length (bufs h)) v' /\ NoDup (map a_buf (leaves v')) /\
    read_value (bufs h') v' = read_value (bufs h) v.
Proof.
  intros h d ck s h' v H L. unfold exec in H. rewrite L in H.
  destruct ck as [k| | ], v as [a|o p v q m|o e g|t c];
    repeat match type of H with context [if ?x then _ else _] => destruct x end; try discriminate H;
    injection H as <-; do 3 eexists; (split; [reflexivity|]); cbn [bufs]; unfold freshv, read_value; cbn [leaves map];
    repeat split; try (repeat constructor; simpl; lia).
  all: erewrite !read_fresh by (reflexivity || apply read_at_length); reflexivity.
Qed.

(* what the copy looks like: class = the class called (position/velocity resp. electric/magnetic for the parts), shape and
   dtype of the source, each array over the whole of its own buffer *)
Lemma exec_copy_shape_class : forall h d ck s h' v, exec h (OCopy d ck s) = (h', ROk) -> lookup s (env h) = Some v ->
  exists v', lookup d (env h') = Some v' /\
    map a_shape (leaves v') = map a_shape (leaves v) /\ map a_dt (leaves v') = map a_dt (leaves v) /\
    Forall (fun a => exists n, a_idx a = seq 0 n) (leaves v') /\
    match ck, v' with
    | CArr k, VArr a' => a_kind a' = k
    | CPart, VPart _ p' v' q' m' => a_kind p' = KPos /\ a_kind v' = KVel
    | CFld, VFld _ e' g' => a_kind e' = KElec /\ a_kind g' = KMagn
    | _, _ => False
    end.
Proof.
  intros h d ck s h' v H L. unfold exec in H. rewrite L in H.
  destruct ck as [k| | ], v as [a|o p v q m|o e g|t c];
    repeat match type of H with context [if ?x then _ else _] => destruct x end; try discriminate H;
    injection H as <-; eexists; (split; [apply lookup_bind_same|]);
    repeat split; repeat constructor; eexists; reflexivity.
Qed.

(* Copy construction cls(src) (mesh, multi-component meshes, particles, fields): the new object has
   the cells of the source, lives in brand-new pairwise distinct buffers, nothing else changed; a
   later write through ANY pre-existing array (the source, a view of it, ...) leaves the copy
   unchanged and a write through the copy (or any view into its buffers) leaves every pre-existing
   object unchanged. *)
Theorem copy_independent : forall h d ck s h1 v, wf h -> exec h (OCopy d ck s) = (h1, ROk) -> lookup s (env h) = Some v ->
  exists v', lookup d (env h1) = Some v' /\
    read_value (bufs h1) v' = read_value (bufs h) v /\
    freshv (length (bufs h)) v' /\ NoDup (map a_buf (leaves v')) /\
    (forall w, wfv (length (bufs h)) w -> read_value (bufs h1) w = read_value (bufs h) w) /\
    forall t sl src h2 r a, exec h1 (OSet t sl src) = (h2, r) -> lookup t (env h1) = Some (VArr a) ->
      (a_buf a < length (bufs h) -> read_value (bufs h2) v' = read_value (bufs h1) v') /\
      (length (bufs h) <= a_buf a -> forall w, wfv (length (bufs h)) w -> read_value (bufs h2) w = read_value (bufs h1) w).
Proof.
  intros h d ck s h1 v W H L.
  destruct (exec_copy_fresh _ _ _ _ _ _ H L) as (v' & extra & k & E & F & ND & R).
  exists v'. split; [subst h1; cbn [env]; apply lookup_bind_same|].
  split; auto. split; auto. split; auto. split.
  - intros w Hw. subst h1. cbn [bufs]. apply read_value_app. auto.
  - intros t sl src h2 r a X Lt. split.
    + intros Ha. apply map_ext_in. intros a2 I2. apply (setitem_preserves_other_buffers _ _ _ _ _ _ _ X Lt).
      pose proof (proj1 (Forall_forall _ _) F a2 I2). simpl in *. lia.
    + intros Ha w Hw. apply map_ext_in. intros a2 I2. apply (setitem_preserves_other_buffers _ _ _ _ _ _ _ X Lt).
      pose proof (proj1 (Forall_forall _ _) Hw a2 I2). simpl in *. lia.
Qed.

(* views (components, slices, strided / transposed views) alias the parent *)
Theorem component_views_alias : forall h c p i h1 ap, exec h (OComp c p i) = (h1, ROk) -> lookup p (env h) = Some (VArr ap) ->
  exists ac, lookup c (env h1) = Some (VArr ac) /\ bufs h1 = bufs h /\
    a_kind ac = KMesh /\ a_dt ac = a_dt ap /\ a_buf ac = a_buf ap /\ a_shape ac = tl (a_shape ap) /\
    a_idx ac = sub (a_idx ap) (i * size (a_shape ac)) (size (a_shape ac)) /\ i < 2 /\ size (a_shape ap) = 2 * size (a_shape ac) /\
    (* in every buffer state, i.e. whatever is written later through the view, the parent or anything else *)
    forall bs, read_arr bs ac = firstn (size (a_shape ac)) (skipn (i * size (a_shape ac)) (read_arr bs ap)).
Proof.
  intros h c p i h1 ap H L. unfold exec in H. rewrite L in H.
  destruct (is_multi (a_kind ap) && (i <? 2)) eqn:M; [|discriminate H].
  apply andb_true_iff in M. destruct M as [_ Hi]. apply Nat.ltb_lt in Hi.
  destruct (a_shape ap) as [|[|[|[|n]]] [|m t]] eqn:S; try discriminate H.
  injection H as <-. cbn [env bufs].
  eexists. rewrite lookup_bind_same. split; [reflexivity|]. split; [apply app_nil_r|].
  cbn [a_kind a_dt a_buf a_shape a_idx tl].
  repeat split; auto.
  intros bs. apply read_at_sub.
Qed.

Lemma component_view_reads : forall h c p i h1 ap ac, exec h (OComp c p i) = (h1, ROk) ->
  lookup p (env h) = Some (VArr ap) -> lookup c (env h1) = Some (VArr ac) ->
  forall bs, read_arr bs ac = firstn (size (a_shape ac)) (skipn (i * size (a_shape ac)) (read_arr bs ap)).
Proof.
  intros h c p i h1 ap ac H L Lc.
  destruct (component_views_alias _ _ _ _ _ _ H L) as (ac' & Lc' & _ & _ & _ & _ & _ & _ & _ & _ & V).
  rewrite Lc in Lc'. injection Lc' as <-. exact V.
Qed.

(* a successful `d[:] = src` through an in-bounds window is read back through d *)
Theorem setitem_reads_back : forall h d src h' a ps u cells, inb (bufs h) a -> exec h (OSet d SAll src) = (h', ROk) ->
  lookup d (env h) = Some (VArr a) -> eval_operand h src = Some ps -> as_ufarg (bufs h) ps = Some u ->
  assign_cells (a_dt a) (a_shape a) (u_cplx u) (u_shape u) (u_cells u) = Some cells ->
  read_arr (bufs h') a = cells.
Proof.
  intros h d src h' a ps u cells (_ & Hb & ND & Hl) H L E1 E2 E3.
  unfold exec in H. rewrite L, E1 in H.
  unfold select in H. destruct (a_shape a) as [|n t] eqn:S; [discriminate|].
  rewrite E2 in H. cbn [region_shape region_idx] in H. rewrite E3 in H.
  apply assign_cells_length in E3.
  destruct (u_kind u); simpl in H.
  2: destruct (u_cplx u && negb (is_cplx (a_dt a))); [discriminate H|].
  all: injection H as <-; cbn [bufs]; apply read_after_write; auto; congruence.
Qed.

(* the maximum norm that abs() computes *)
Local Open Scope Z_scope.
Definition maxof {A} (g : A -> Z) (l : list A) : Z := fold_right (fun c m => Z.max (g c) m) 0 l.
(* the model's two norms are instances, by unfolding: a lemma about [maxof Z.abs] is a lemma about [maxabs] *)
Lemma maxabs_maxof : forall l, maxabs l = maxof Z.abs l.
Proof. reflexivity. Qed.
Lemma maxsq_maxof : forall l, maxsq l = maxof normsq l.
Proof. reflexivity. Qed.
Section MaxOf.
  Context {A : Type} (g : A -> Z).
  Lemma maxof_nonneg : forall l, 0 <= maxof g l.
  Proof. unfold maxof. induction l; simpl; lia. Qed.
  Lemma maxof_ge : forall l x, In x l -> g x <= maxof g l.
  Proof.
    unfold maxof. induction l; simpl; intros x H; [tauto|]. destruct H as [->|H]; [lia|]. specialize (IHl _ H). lia.
  Qed.
  Lemma maxof_scale : forall f k, 0 <= k -> (forall x, g (f x) = k * g x) -> forall l, maxof g (map f l) = k * maxof g l.
  Proof.
    unfold maxof. intros f k Hk Hf. induction l; simpl; [lia|]. rewrite IHl, Hf, Z.mul_max_distr_nonneg_l; auto.
  Qed.
  Hypothesis g_nonneg : forall x, 0 <= g x.
  Lemma maxof_attained : forall l, l <> [] -> exists x, In x l /\ maxof g l = g x.
  Proof.
    induction l as [|a l IH]; intros H; [congruence|]. change (maxof g (a :: l)) with (Z.max (g a) (maxof g l)).
    destruct l as [|b l].
    - exists a. split; [left; auto|]. apply Z.max_l, g_nonneg.
    - destruct IH as [x [I E]]; [congruence|].
      destruct (Z.max_spec (g a) (maxof g (b :: l))) as [[_ M]|[_ M]]; rewrite M.
      + exists x. split; [right; auto|auto].
      + exists a. split; [left; auto|auto].
  Qed.
  Lemma maxof_zero : forall P : A -> Prop, (forall x, g x = 0 <-> P x) -> forall l, maxof g l = 0 <-> Forall P l.
  Proof.
    intros P gP. induction l as [|a l IH]; split; intros H; auto.
    - change (Z.max (g a) (maxof g l) = 0) in H. pose proof (maxof_nonneg l). pose proof (g_nonneg a).
      constructor; [apply gP | apply IH]; lia.
    - inversion H as [|? ? Ha Hl]; subst. apply gP in Ha. apply IH in Hl.
      change (Z.max (g a) (maxof g l) = 0). rewrite Ha, Hl. reflexivity.
  Qed.
End MaxOf.

Definition zip_add (l1 l2 : list Z) : list Z := map (fun xy => fst xy + snd xy) (combine l1 l2).

(* complex cells: the squared modulus (exact in Z); sqrt S <= sqrt A + sqrt B is stated without roots *)
Lemma normsq_nonneg : forall c, 0 <= normsq c.
Proof. intros [a b]. unfold normsq. simpl. nia. Qed.
Lemma normsq_zero : forall c, normsq c = 0 <-> c = (0, 0).
Proof. intros [a b]. unfold normsq. simpl. split; intros H; [f_equal; nia|inversion H; lia]. Qed.
Lemma normsq_mul : forall x y, normsq (cmul x y) = normsq x * normsq y.
Proof. intros [a b] [c d]. unfold normsq, cmul. simpl. ring. Qed.
Lemma maxsq_ge : forall l c, In c l -> normsq c <= maxsq l.
Proof. intros l c. rewrite maxsq_maxof. apply maxof_ge. Qed.
Definition cadd (x y : cell) : cell := (fst x + fst y, snd x + snd y).
Definition zip_cadd (l1 l2 : list cell) : list cell := map (fun xy => cadd (fst xy) (snd xy)) (combine l1 l2).
(* sqrt S <= sqrt A + sqrt B   <->   S <= A + B  \/  (S - A - B)^2 <= 4 A B   (for S, A, B >= 0) *)
Definition sqrt_le_sum (S A B : Z) : Prop := S <= A + B \/ (S - A - B) * (S - A - B) <= 4 * A * B.
Lemma sqrt_le_sum_mono : forall S A B A' B', 0 <= S -> 0 <= A <= A' -> 0 <= B <= B' -> sqrt_le_sum S A B -> sqrt_le_sum S A' B'.
Proof.
  unfold sqrt_le_sum. intros S A B A' B' HS HA HB [H|H]; [left; lia|].
  destruct (Z_le_gt_dec S (A' + B')); [left; auto|right].
  assert (0 < S - A' - B' <= S - A - B) by lia.
  assert ((S - A' - B') * (S - A' - B') <= (S - A - B) * (S - A - B)) by (apply Z.mul_le_mono_nonneg; lia).
  assert (A * B <= A' * B') by (apply Z.mul_le_mono_nonneg; lia).
  set (T1 := (S - A' - B') * (S - A' - B')) in *. set (T0 := (S - A - B) * (S - A - B)) in *. clearbody T1 T0. lia.
Qed.
Lemma cell_triangle : forall x y A B, normsq x <= A -> normsq y <= B -> sqrt_le_sum (normsq (cadd x y)) A B.
Proof.
  intros x y A B HA HB. apply (sqrt_le_sum_mono _ (normsq x) (normsq y)); auto using normsq_nonneg.
  (* with A, B the moduli themselves S - A - B = 2 Re(x conj y), and Re(x conj y)^2 + Im(x conj y)^2 = A B *)
  right. destruct x as [a b], y as [c d]. unfold normsq, cadd. cbn [fst snd].
  pose proof (Z.square_nonneg (a * d - b * c)). nia.
Qed.
Local Close Scope Z_scope.

(* non-vacuity *)
Definition demo_ops : list op :=
  [ONew 0 KImex DReal [3] 2; OAssign 1 0; OIop 1 UAdd (OS SInt (1, 0)%Z); OComp 2 0 1;
   OSet 2 (SRange 1 3) (OS SFloat (7, 0)%Z); OCopy 3 (CArr KImex) 0; OSet 3 SAll (OS SInt (0, 0)%Z); OAbs 4 0].
(* names after the run: 0 = the imex mesh (component `expl` partly overwritten through the view 2),
   1 = the rebound result of `+=` in a new buffer, 3 = an independent copy (zeroed), 4 = abs(0) *)
Example demo_run :
  dump 5 (exec_seq empty_heap demo_ops) =
  [1; 2; 0; 2; 2; 3;  2;0; 2;0; 2;0; 2;0; 7;0; 7;0;
   1; 2; 0; 2; 2; 3;  3;0; 3;0; 3;0; 3;0; 3;0; 3;0;
   1; 1; 0; 1; 3;  2;0; 7;0; 7;0;
   1; 2; 0; 2; 2; 3;  0;0; 0;0; 0;0; 0;0; 0;0; 0;0;
   4; 0; 7; 0;
   -1; 0; 1; 2; 3; -2; 0; 2]%Z.
Proof. vm_compute. reflexivity. Qed.
Example demo_iop_hypotheses : exists h a h', wf h /\ lookup 1 (env h) = Some (VArr a) /\
  exec h (OIop 1 UAdd (OS SInt (1, 0)%Z)) = (h', ROk).
Proof.
  exists (exec_seq empty_heap (firstn 2 demo_ops)). eexists. eexists.
  split; [apply wf_reachable|]. split; vm_compute; reflexivity.
Qed.
Example demo_component_hypotheses : exists h ap h1, lookup 0 (env h) = Some (VArr ap) /\ exec h (OComp 2 0 1) = (h1, ROk).
Proof. exists (exec_seq empty_heap (firstn 3 demo_ops)). eexists. eexists. split; vm_compute; reflexivity. Qed.
Example demo_copy_hypotheses : exists h v h1, wf h /\ lookup 0 (env h) = Some v /\ exec h (OCopy 3 (CArr KImex) 0) = (h1, ROk).
Proof.
  exists (exec_seq empty_heap (firstn 5 demo_ops)). eexists. eexists.
  split; [apply wf_reachable|]. split; vm_compute; reflexivity.
Qed.

Definition strided_demo : list op :=
  [ONew 0 KImex DReal [2; 3] 1;
   OView 1 0 [0; 2; 1] [(0%Z, 1%Z, 2); (2%Z, (-2)%Z, 2); (0%Z, 1%Z, 2)];      (* v = f.transpose(0,2,1)[:, ::-2, :] *)
   OComp 2 1 1;                                                     (* c = v.expl *)
   OSet 2 SAll (OS SInt (9, 0)%Z)].                                 (* c[:] = 9 *)
Example strided_demo_run :
  dump 3 (exec_seq empty_heap strided_demo) =
  [1; 2; 0; 3; 2; 2; 3;  1;0; 1;0; 1;0; 1;0; 1;0; 1;0;  9;0; 1;0; 9;0; 9;0; 1;0; 9;0;
   1; 2; 0; 3; 2; 2; 2;  1;0; 1;0; 1;0; 1;0;  9;0; 9;0; 9;0; 9;0;
   1; 1; 0; 2; 2; 2;  9;0; 9;0; 9;0; 9;0;
   -1; 0; 1; 2; -2; 0; 1; 0; 2; 1; 2]%Z.
Proof. vm_compute. reflexivity. Qed.
Example strided_demo_hypotheses : exists h ap h1, wfs h /\ lookup 0 (env h) = Some (VArr ap) /\
  exec h (OView 1 0 [0; 2; 1] [(0%Z, 1%Z, 2); (2%Z, (-2)%Z, 2); (0%Z, 1%Z, 2)]) = (h1, ROk).
Proof.
  exists (exec_seq empty_heap (firstn 1 strided_demo)). eexists. eexists.
  split; [apply wfs_reachable|]. split; vm_compute; reflexivity.
Qed.
