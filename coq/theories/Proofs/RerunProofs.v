(* C19 — proofs about Model/Rerun.v, in the order of its Parts (Part 4, the flattening of a controller state for the
   comparison with snapshots, needs no lemma) *)
From Coq Require Import List Bool Arith ZArith Lia PrimFloat.
From PySDC Require Import Model.Rerun.
Import ListNotations.

Lemma list_beq_bool_eq : forall l1 l2, list_beq Bool.eqb l1 l2 = true -> l1 = l2.
Proof.
  induction l1 as [|x r IH]; destruct l2 as [|y r2]; simpl; intros H; try discriminate; auto.
  apply andb_true_iff in H. destruct H as [H1 H2].
  apply eqb_prop in H1. subst. f_equal. auto.
Qed.

Lemma upd_length : forall A (l : list A) i x, length (upd l i x) = length l.
Proof. induction l; destruct i; simpl; auto. Qed.

Lemma upd_comm : forall A (l : list A) i j x y, i <> j -> upd (upd l i x) j y = upd (upd l j y) i x.
Proof.
  induction l as [|a r IH]; intros i j x y H; destruct i, j; simpl; auto; try congruence.
  f_equal. apply IH. congruence.
Qed.

Lemma nth_upd_other : forall A (l : list A) i j x d, i <> j -> nth j (upd l i x) d = nth j l d.
Proof.
  induction l as [|a r IH]; intros i j x d H; destruct i, j; simpl; auto; try congruence.
Qed.

Lemma mapi_from_length : forall A B (f : nat -> A -> B) l k, length (mapi_from k f l) = length l.
Proof. induction l; simpl; auto. Qed.

Lemma mapi_from_map : forall A B C (f : nat -> B -> C) (g : A -> B) l k,
  mapi_from k f (map g l) = mapi_from k (fun i x => f i (g x)) l.
Proof. induction l; simpl; intros; f_equal; auto. Qed.

Lemma map_mapi_from : forall A B C (f : nat -> A -> B) (g : B -> C) l k,
  map g (mapi_from k f l) = mapi_from k (fun i x => g (f i x)) l.
Proof. induction l; simpl; intros; f_equal; auto. Qed.

Lemma map_mapi_from_inv : forall A B C (f : nat -> A -> B) (g : B -> C) (h : A -> C) l k,
  (forall i x, g (f i x) = h x) -> map g (mapi_from k f l) = map h l.
Proof. induction l; simpl; intros; f_equal; auto. Qed.

Lemma mapi_from_ext : forall A B (f g : nat -> A -> B) l k,
  (forall i x, f i x = g i x) -> mapi_from k f l = mapi_from k g l.
Proof. induction l; simpl; intros; f_equal; auto. Qed.

Lemma mapi_from_congr : forall A B C (g : A -> C) (f : nat -> A -> B),
  (forall i x y, g x = g y -> f i x = f i y) ->
  forall l l' k, map g l = map g l' -> mapi_from k f l = mapi_from k f l'.
Proof.
  intros A B C g f Hf. induction l as [|x r IH]; destruct l' as [|y r']; simpl; intros k H; inversion H; auto.
  f_equal; auto.
Qed.

Lemma mapi_from_ext2 : forall A B (f g : nat -> A -> B) (d d' : A) l l' k,
  length l = length l' ->
  (forall i, i < length l -> f (k + i) (nth i l d) = g (k + i) (nth i l' d')) ->
  mapi_from k f l = mapi_from k g l'.
Proof.
  induction l as [|x r IH]; destruct l' as [|y r']; simpl; intros k HL H; try discriminate; auto.
  f_equal.
  - specialize (H 0). simpl in H. rewrite Nat.add_0_r in H. apply H. lia.
  - apply IH. lia. intros i Hi. specialize (H (S i)). simpl in H.
    replace (k + S i) with (S k + i) in H by lia. apply H. lia.
Qed.

Lemma nth_mapi_from : forall A B (f : nat -> A -> B) d d' l k q,
  q < length l -> nth q (mapi_from k f l) d = f (k + q) (nth q l d').
Proof.
  induction l as [|x r IH]; simpl; intros k q Hq. lia.
  destruct q as [|q]. rewrite Nat.add_0_r. reflexivity.
  rewrite IH by lia. f_equal. lia.
Qed.

Lemma index_of_seq : forall n k p, p < n -> index_of (k + p) (seq k n) = Some p.
Proof.
  induction n as [|n IH]; intros k p Hp. lia.
  simpl. destruct p as [|p'].
  - rewrite Nat.add_0_r, Nat.eqb_refl. reflexivity.
  - destruct (Nat.eqb_spec k (k + S p')) as [E|E]. lia.
    replace (k + S p') with (S k + p') by lia. rewrite IH by lia. reflexivity.
Qed.

(* Part 1: the time loop — no law about add/sub/ltb is used anywhere *)

Section TimeLoopProofs.
  Variable T : Type.
  Variable add sub : T -> T -> T.
  Variable ltb : T -> T -> bool.
  Variable zero teneps dflt : T.
  Variable U : Type.
  Variable blk : list (nat * T * T) -> U -> U.
  Variable dts : list T.

  Notation loop := (loop T add ltb dflt U blk dts).
  Notation init_times := (init_times T add zero dts).
  Notation thr := (thr T sub teneps).
  Notation active := (active T ltb).
  Notation run := (run T add sub ltb zero teneps dflt U blk dts).
  Notation mask_agree := (mask_agree T ltb U).
  Notation next_times := (next_times T add dflt dts).

  (* run is a function: same inputs, same outcome (trivially, it is a Gallina function) *)
  Lemma run_deterministic : forall f t0 Tend u0 o1 o2, run f t0 Tend u0 = o1 -> run f t0 Tend u0 = o2 -> o1 = o2.
  Proof. intros; congruence. Qed.

  Lemma loop_fuel_mono : forall f th times u r k, loop f th times u = Some r -> loop (f + k) th times u = Some r.
  Proof.
    induction f as [|f IH]; intros th times u r k H.
    - cbn [Rerun.loop] in H. destruct (compress (active th times)) eqn:E; try discriminate.
      destruct k; cbn [Rerun.loop Nat.add]; rewrite E; auto.
    - cbn [Rerun.loop] in H. cbn [Rerun.loop Nat.add]. destruct (compress (active th times)) eqn:E; auto.
      destruct (loop f th _ _) as [[[tf uf] tr]|] eqn:E2; try discriminate.
      rewrite (IH _ _ _ _ k E2). auto.
  Qed.

  (* the first run (threshold thM) is a prefix of the run with threshold thE as long as both
     active tests give the same mask before every block of the first run *)
  Lemma loop_switch : forall f1 thM thE times u tk uk tr1,
    loop f1 thM times u = Some (tk, uk, tr1) ->
    forallb (mask_agree thM thE) tr1 = true ->
    forall f2 tf uf tr2, loop f2 thE tk uk = Some (tf, uf, tr2) ->
    loop (f1 + f2) thE times u = Some (tf, uf, tr1 ++ tr2).
  Proof.
    induction f1 as [|f IH]; intros thM thE times u tk uk tr1 H HM f2 tf uf tr2 H2.
    - cbn [Rerun.loop] in H. destruct (compress (active thM times)) eqn:E; try discriminate.
      injection H as <- <- <-. exact H2.
    - cbn [Rerun.loop] in H. destruct (compress (active thM times)) eqn:E.
      + injection H as <- <- <-. simpl app.
        replace (S f + f2) with (f2 + S f) by lia. apply loop_fuel_mono. exact H2.
      + destruct (loop f thM _ _) as [[[tf1 uf1] tr]|] eqn:E2; try discriminate.
        injection H as <- <- <-. simpl in HM. apply andb_true_iff in HM. destruct HM as [HM1 HM2].
        apply list_beq_bool_eq in HM1.
        cbn [Rerun.loop Nat.add]. rewrite <- HM1. rewrite E.
        rewrite (IH _ _ _ _ _ _ _ E2 HM2 _ _ _ _ H2). reflexivity.
  Qed.

  (* split_compose: stop at a block boundary, continue from the reached time value tk and the
     returned value uk: same blocks, same (slot, start, dt) triples, same chained values, same end.
       premise (a)  the two active tests agree before every block of the first run  [boolean]
       premise (b)  the time list the second run() builds from tk is the one the first run ended with *)
  Theorem split_compose : forall f1 f2 t0 Tmid Tend u0 times_k uk tr1 tk tf uf tr2,
    loop f1 (thr Tmid) (init_times t0) u0 = Some (times_k, uk, tr1) ->
    forallb (mask_agree (thr Tmid) (thr Tend)) tr1 = true ->
    init_times tk = times_k ->
    loop f2 (thr Tend) (init_times tk) uk = Some (tf, uf, tr2) ->
    loop (f1 + f2) (thr Tend) (init_times t0) u0 = Some (tf, uf, tr1 ++ tr2).
  Proof.
    intros. subst times_k. eapply loop_switch; eauto.
  Qed.

  Lemma next_times_length : forall slots times, length (next_times slots times) = length times.
  Proof.
    intros slots times. unfold Rerun.next_times. destruct slots as [|s0 r]; auto.
    set (t1 := upd times s0 _).
    assert (H1 : length t1 = length times) by (apply upd_length).
    revert H1. generalize t1. generalize (seq 1 (length (s0 :: r) - 1)).
    induction l as [|i l IH]; simpl; intros t H; auto.
    apply IH. rewrite upd_length. auto.
  Qed.

  Lemma loop_length : forall f th times u tf uf tr, loop f th times u = Some (tf, uf, tr) -> length tf = length times.
  Proof.
    induction f as [|f IH]; intros th times u tf uf tr H; cbn [Rerun.loop] in H.
    - destruct (compress _); try discriminate. injection H as <- _ _; auto.
    - destruct (compress _) eqn:E. injection H as <- _ _; auto.
      destruct (loop f th _ _) as [[[a b] c]|] eqn:E2; try discriminate.
      injection H as <- _ _. apply IH in E2. rewrite E2. apply next_times_length.
  Qed.
End TimeLoopProofs.

(* two slots: after a block in which both were active the time list is [tk; tk + d0] with
   tk = time[1] + d1, and run() rebuilds it from tk as [tk + 0; tk + (0 + d0)] *)
Lemma two_slot_boundary : forall T (add : T -> T -> T) (zero dflt : T) d0 d1 a b,
  let tk := add b d1 in
  next_times T add dflt [d0; d1] [0; 1] [a; b] = [tk; add tk d0] /\
  (add tk zero = tk -> add zero d0 = d0 -> init_times T add zero [d0; d1] tk = [tk; add tk d0]).
Proof.
  intros. split. reflexivity. intros H1 H2. unfold init_times. simpl. rewrite H1, H2. reflexivity.
Qed.

(* the IEEE-double instance (Coq primitive floats; primitives, not axioms) *)

Definition f_teneps : float := 0x1.4p-49%float.          (* 10 * np.finfo(float).eps *)
Definition floop := loop float PrimFloat.add PrimFloat.ltb 0%float.
Definition frun := run float PrimFloat.add PrimFloat.sub PrimFloat.ltb 0%float f_teneps 0%float.
Definition finit := init_times float PrimFloat.add 0%float.
Definition fthr := thr float PrimFloat.sub f_teneps.

(* bit-exact comparison of doubles (distinguishes +0/-0, identifies NaNs) for reporting *)
Definition fclass_code (x : float) : nat :=
  match classify x with
  | FloatClass.PNormal => 0 | FloatClass.NNormal => 1 | FloatClass.PSubn => 2 | FloatClass.NSubn => 3
  | FloatClass.PZero => 4 | FloatClass.NZero => 5 | FloatClass.PInf => 6 | FloatClass.NInf => 7 | FloatClass.NaN => 8
  end.
Definition feqb (x y : float) : bool :=
  Nat.eqb (fclass_code x) (fclass_code y) && (PrimFloat.eqb x y || Nat.eqb (fclass_code x) 8).

Definition step_eqb (a b : nat * float * float) : bool :=
  let '(p, t, d) := a in let '(q, s, e) := b in Nat.eqb p q && feqb t s && feqb d e.
Definition steps_eqb (a b : list (list (nat * float * float))) : bool := list_beq (list_beq step_eqb) a b.

(* the witness against split composition without premise (b) on IEEE doubles (C19_split_compose_refuted):
   4 slots, dt = 0.1, t0 = 0: run(0, 0.4) then run(0.4, 0.8) starts its 3rd/4th step at
   0.6000000000000001 / 0.7000000000000001, the uninterrupted run(0, 0.8) at 0.6 / 0.7 *)
Definition w_dt : float := 0x1.999999999999ap-4%float.
Definition w_dts := [w_dt; w_dt; w_dt; w_dt].
Definition w_blk : list (nat * float * float) -> unit -> unit := fun _ u => u.

(* non-vacuity of split_compose on doubles: 2 slots, dt = 0.1 — both premises hold *)
Example split_compose_nonvacuous :
  let dts := [w_dt; w_dt] in
  exists times_k tr1 tf tr2,
    floop unit w_blk dts 5 (fthr 0x1.999999999999ap-2%float) (finit dts 0%float) tt = Some (times_k, tt, tr1) /\
    forallb (mask_agree float PrimFloat.ltb unit (fthr 0x1.999999999999ap-2%float) (fthr 0x1.999999999999ap-1%float)) tr1 = true /\
    finit dts (nth 0 times_k 0%float) = times_k /\
    floop unit w_blk dts 5 (fthr 0x1.999999999999ap-1%float) (finit dts (nth 0 times_k 0%float)) tt = Some (tf, tt, tr2) /\
    length tr1 = 2 /\ length tr2 = 2.
Proof.
  eexists _, _, _, _.
  split. vm_compute. reflexivity.
  split. vm_compute. reflexivity.
  split. vm_compute. reflexivity.
  split. vm_compute. reflexivity.
  split; reflexivity.
Qed.

(* Part 2: the entry resets re-initialise everything except an explicit list of carried fields *)

Section PersistProofs.
  Variable D : Type.
  Notation Stp := (Stp D).
  Notation Ctrl := (Ctrl D).

  Lemma reset_step_at_carried : forall slots j p time u0 (s s' : Stp),
    carried_step s = carried_step s' ->
    reset_step_at slots j p time u0 s = reset_step_at slots j p time u0 s'.
  Proof.
    intros slots j p time u0 [o ls pv] [o' ls' pv'] H. unfold carried_step in H. simpl in H.
    injection H as H1 H2 H3 H4 H5 H6.
    unfold reset_step_at. simpl. rewrite H1, H2, H3, H4, H5.
    f_equal. apply mapi_from_congr with (g := fun l => (lv_keep l, lv_nn l)); [|exact H6].
    intros i l l' E. injection E as E1 E2. unfold reset_level. rewrite E1, E2. reflexivity.
  Qed.

  (* when every slot is active, a step enters only through its carried fields *)
  Lemma step_rel_all_active : forall n p (s s' : Stp),
    p < n -> carried_step s = carried_step s' -> step_rel (seq 0 n) p s s'.
  Proof.
    intros n p s s' Hp H. unfold step_rel.
    replace (index_of p (seq 0 n)) with (Some p) by (symmetry; apply (index_of_seq n 0 p Hp)). exact H.
  Qed.

  Lemma restart_block_frame : forall slots times u0 (steps steps' : list Stp) (d : Stp),
    length steps = length steps' ->
    (forall p, p < length steps -> step_rel slots p (nth p steps d) (nth p steps' d)) ->
    restart_block slots times u0 steps = restart_block slots times u0 steps'.
  Proof.
    intros slots times u0 steps steps' d HL H. unfold restart_block, mapi.
    apply mapi_from_ext2 with (d := d) (d' := d); auto.
    intros i Hi. simpl. specialize (H i Hi). unfold step_rel in H.
    destruct (index_of i slots); auto. apply reset_step_at_carried; auto.
  Qed.

  Lemma reset_stats_frame : forall (hs hs' : list Hook), Forall2 hook_rel hs hs' -> map reset_stats hs = map reset_stats hs'.
  Proof.
    induction 1 as [|h h' r r' [H1 H2] _ IH]; simpl; auto.
    rewrite IH. unfold reset_stats. rewrite H1, H2. reflexivity.
  Qed.

  (* FRAME / INITIALISATION LEMMA.  After reset_stats + restart_block the complete controller state is
     determined by the inputs of run() and by: for active slots the carried fields (pred_cnt,
     force_continue, diff_old_loc, diff_first_loc, restarts_in_a_row, u_avg/residual/increment,
     num_nodes); inactive steps (kept as they are, only `restart` is cleared); per hook its restart
     counter and private attributes; the convergence-controller buffers; the sweeper RNG. *)
  Theorem run_entry_frame : forall slots times u0 (c c' : Ctrl) (d : Stp),
    length (c_steps c) = length (c_steps c') ->
    (forall p, p < length (c_steps c) -> step_rel slots p (nth p (c_steps c) d) (nth p (c_steps c') d)) ->
    Forall2 hook_rel (c_hooks c) (c_hooks c') ->
    c_bufs c = c_bufs c' -> c_rng c = c_rng c' ->
    run_entry slots times u0 c = run_entry slots times u0 c'.
  Proof.
    intros slots times u0 c c' d HL HS HH HB HR. unfold run_entry.
    rewrite (restart_block_frame slots times u0 _ _ d HL HS), (reset_stats_frame _ _ HH), HB, HR. reflexivity.
  Qed.

  (* a run = entry resets followed by ANY function of the resulting state (pfasst blocks, hooks,
     convergence controllers): no assumption on that function *)
  Section Body.
    Variable Res : Type.
    Variable body : Ctrl -> Res * Ctrl.
    Definition run1 (slots : list nat) (times : list val) (u0 : D) (c : Ctrl) : Res * Ctrl :=
      body (run_entry slots times u0 c).

    Theorem rerun_equal : forall slots times u0 (c c' : Ctrl) (d : Stp),
      length (c_steps c) = length (c_steps c') ->
      (forall p, p < length (c_steps c) -> step_rel slots p (nth p (c_steps c) d) (nth p (c_steps c') d)) ->
      Forall2 hook_rel (c_hooks c) (c_hooks c') ->
      c_bufs c = c_bufs c' -> c_rng c = c_rng c' ->
      run1 slots times u0 c = run1 slots times u0 c'.
    Proof. intros. unfold run1. erewrite run_entry_frame; eauto. Qed.

    Corollary rerun_equal_all_active : forall times u0 (c c' : Ctrl) (d : Stp),
      length (c_steps c) = length (c_steps c') ->
      (forall p, p < length (c_steps c) -> carried_step (nth p (c_steps c) d) = carried_step (nth p (c_steps c') d)) ->
      Forall2 hook_rel (c_hooks c) (c_hooks c') ->
      c_bufs c = c_bufs c' -> c_rng c = c_rng c' ->
      run1 (seq 0 (length (c_steps c))) times u0 c = run1 (seq 0 (length (c_steps c))) times u0 c'.
    Proof.
      intros times u0 c c' d HL HS HH HB HR. apply rerun_equal with (d := d); auto.
      intros p Hp. apply step_rel_all_active; auto.
    Qed.
  End Body.
End PersistProofs.

(* dead fields: u_avg / residual / increment lists and the hooks' restart counter survive a run but
   are overwritten before they are read (compute_residual assigns L.residual as a whole; every hook
   sets __num_restarts in pre_run before the first add_to_stats).  A body that does not read them is
   a function of the erased state. *)

Section Erase.
  Variable D : Type.
  Notation Stp := (Stp D).
  Notation Ctrl := (Ctrl D).

  Definition erase_lev (l : Lev D) : Lev D := mkLev (lv_stat l) (lv_data l) (lv_tag l) [] (lv_nn l).
  Definition erase_step (s : Stp) : Stp := mkStp (st_stat s) (map erase_lev (st_levels s)) (st_prev s).
  Definition erase_hook (h : Hook) : Hook := mkHook (hk_stats h) None (hk_priv h).
  Definition erase (c : Ctrl) : Ctrl := mkCtrl (map erase_step (c_steps c)) (map erase_hook (c_hooks c)) (c_bufs c) (c_rng c).

  Definition live_step (s : Stp) :=
    (ss_pred_cnt (st_stat s), ss_force_continue (st_stat s), ss_diff_old_loc (st_stat s), ss_diff_first_loc (st_stat s),
     ss_restarts_in_a_row (st_stat s), map (@lv_nn D) (st_levels s)).

  Lemma erase_reset_step_at : forall slots j p time u0 s,
    erase_step (reset_step_at slots j p time u0 s) = reset_step_at slots j p time u0 (erase_step s).
  Proof.
    intros. destruct s as [o ls pv]. unfold reset_step_at, erase_step. simpl. f_equal.
    unfold mapi. rewrite map_mapi_from, mapi_from_map. apply mapi_from_ext.
    intros i l. destruct (Nat.eqb i 0); reflexivity.
  Qed.

  Lemma erase_run_entry : forall slots times u0 c, erase (run_entry slots times u0 c) = run_entry slots times u0 (erase c).
  Proof.
    intros. destruct c as [steps hooks bufs rng]. unfold run_entry, erase. simpl. f_equal.
    - unfold restart_block, mapi. rewrite map_mapi_from, mapi_from_map. apply mapi_from_ext.
      intros i s. destruct (index_of i slots). apply erase_reset_step_at.
      destruct s; reflexivity.
    - rewrite !map_map. apply map_ext. intros h. reflexivity.
  Qed.

  Lemma live_carried : forall s s', live_step s = live_step s' -> carried_step (erase_step s) = carried_step (erase_step s').
  Proof.
    intros [o ls pv] [o' ls' pv'] H. unfold live_step in H. simpl in H. injection H as H1 H2 H3 H4 H5 H6.
    unfold carried_step. simpl. rewrite H1, H2, H3, H4, H5. f_equal.
    rewrite !map_map. simpl. rewrite <- !(map_map (@lv_nn D) (fun n => ([], n))), H6. reflexivity.
  Qed.

  Definition priv_rel (h h' : Hook) : Prop := hk_priv h = hk_priv h'.

  Definition live_rel (c c' : Ctrl) (d : Stp) : Prop :=
    length (c_steps c) = length (c_steps c') /\
    (forall p, p < length (c_steps c) -> live_step (nth p (c_steps c) d) = live_step (nth p (c_steps c') d)) /\
    Forall2 priv_rel (c_hooks c) (c_hooks c') /\ c_bufs c = c_bufs c' /\ c_rng c = c_rng c'.

  Lemma live_rel_refl : forall c d, live_rel c c d.
  Proof. intros c d. repeat split; auto. induction (c_hooks c); constructor; auto. reflexivity. Qed.

  Lemma live_rel_trans : forall a b c d, live_rel a b d -> live_rel b c d -> live_rel a c d.
  Proof.
    intros a b c d (L1 & S1 & H1 & B1 & R1) (L2 & S2 & H2 & B2 & R2). repeat split; try congruence.
    - intros p Hp. rewrite S1 by exact Hp. apply S2. rewrite <- L1. exact Hp.
    - clear - H1 H2. revert H2. generalize (c_hooks c). induction H1; intros l2 H2; inversion H2; subst; constructor.
      unfold priv_rel in *. congruence. auto.
  Qed.

  Lemma live_rel_entry : forall slots times u0 c d, live_rel (erase (run_entry slots times u0 c)) c d.
  Proof.
    intros slots times u0 [steps hooks bufs rng] d. unfold live_rel, erase, run_entry. simpl.
    rewrite map_length. unfold restart_block, mapi. rewrite mapi_from_length, map_mapi_from.
    repeat split; auto.
    - intros p Hp. rewrite (nth_mapi_from _ _ _ _ d) by exact Hp.
      destruct (index_of (0 + p) slots); destruct (nth p steps d) as [o ls pv]; unfold live_step; simpl; f_equal.
      + rewrite map_map. apply map_mapi_from_inv. intros i l. destruct (Nat.eqb i 0); reflexivity.
      + rewrite map_map. reflexivity.
    - clear. induction hooks; simpl; constructor; auto. reflexivity.
  Qed.

  Lemma erase_hooks_rel : forall hs hs', Forall2 priv_rel hs hs' -> Forall2 hook_rel (map erase_hook hs) (map erase_hook hs').
  Proof. induction 1; simpl; constructor; auto. split; simpl; auto. Qed.

  Section LiveBody.
    Variable Res : Type.
    Variable body' : Ctrl -> Res * Ctrl.
    (* the run of a body that does not read the dead fields *)
    Definition run2 (slots : list nat) (times : list val) (u0 : D) (c : Ctrl) : Res * Ctrl :=
      body' (erase (run_entry slots times u0 c)).

    (* rerun_equal, all slots active: the result and the final state of run() do not depend on the
       persistent state the controller starts from, as far as that state agrees on the LIVE carried
       fields (which restart_block does not reset): pred_cnt, force_continue, diff_old_loc,
       diff_first_loc, restarts_in_a_row, the hooks' private attributes, the convergence-controller
       buffers and the sweeper RNG. *)
    Theorem rerun_equal_live : forall times u0 (c c' : Ctrl) (d : Stp),
      live_rel c c' d ->
      run2 (seq 0 (length (c_steps c))) times u0 c = run2 (seq 0 (length (c_steps c))) times u0 c'.
    Proof.
      intros times u0 c c' d (HL & HS & HH & HB & HR). unfold run2. rewrite !erase_run_entry. f_equal.
      apply run_entry_frame with (d := erase_step d); simpl; auto.
      - rewrite !map_length. exact HL.
      - rewrite map_length. intros p Hp. apply step_rel_all_active; auto.
        rewrite !(map_nth erase_step). apply live_carried, HS, Hp.
      - apply erase_hooks_rel. exact HH.
    Qed.

    (* contract of a fixed-step run whose sweepers do not draw random numbers: the live carried fields
       are left as it found them (force_continue is cleared by every check_iteration_status,
       restarts_in_a_row is 0 after every block without restart, the buffers are reset after every
       it_check, pred_cnt / diff_* are never written by controller_nonMPI) and the shape is kept *)
    Hypothesis body_keeps_live : forall e d, live_rel (snd (body' e)) e d.

    (* any history of fixed-step runs (each with all slots active) leaves the controller related to
       the one it started from; hence a later run gives the result a fresh controller gives *)
    Fixpoint history (c : Ctrl) (inputs : list (list val * D)) : Ctrl :=
      match inputs with
      | [] => c
      | (times, u0) :: r => history (snd (run2 (seq 0 (length (c_steps c))) times u0 c)) r
      end.

    Lemma history_live : forall inputs c d, live_rel (history c inputs) c d.
    Proof.
      induction inputs as [|[times u0] r IH]; intros c d; simpl.
      - apply live_rel_refl.
      - eapply live_rel_trans. apply IH.
        eapply live_rel_trans. apply body_keeps_live. apply live_rel_entry.
    Qed.

    Theorem rerun_equal_after_history : forall inputs times u0 (c0 : Ctrl) (d : Stp),
      fst (run2 (seq 0 (length (c_steps c0))) times u0 (history c0 inputs)) =
      fst (run2 (seq 0 (length (c_steps c0))) times u0 c0).
    Proof.
      intros. pose proof (history_live inputs c0 d) as H.
      assert (HL : length (c_steps (history c0 inputs)) = length (c_steps c0)) by (destruct H; auto).
      rewrite <- HL. rewrite (rerun_equal_live times u0 _ _ d H). reflexivity.
    Qed.
  End LiveBody.
End Erase.

(* witnesses showing that the premises of rerun_equal are necessary (C19_rerun_equal_refuted_stale_inactive: one
   active slot out of two, the stale status of the INACTIVE step reaches the body; C19_rerun_equal_refuted_rng) *)

Definition ex_fresh2 : Ctrl unit := fresh_ctrl 2 [3] 1 [vFalse; vFalse] 1984%Z.
(* the same controller after a run in which both steps were active: step 1 still says last = True *)
Definition ex_used2 : Ctrl unit :=
  let s1 := nth 1 (c_steps (run_entry [0; 1] [Some 0%Z; Some 1%Z] tt ex_fresh2)) (fresh_step [3]) in
  mkCtrl [fresh_step [3]; s1] (c_hooks ex_fresh2) (c_bufs ex_fresh2) (c_rng ex_fresh2).
(* a body that reads status.last of step 1 (as LogGlobalErrorPostRun.post_run does for every step) *)
Definition ex_body_last (e : Ctrl unit) : val * Ctrl unit := (ss_last (st_stat (nth 1 (c_steps e) (fresh_step []))), e).

(* the sweeper RNG is carried and never re-seeded: a body that draws from it (initial_guess='random')
   gives different results on a used controller *)
Definition ex_body_rng (e : Ctrl unit) : Z * Ctrl unit :=
  (c_rng e, mkCtrl (c_steps e) (c_hooks e) (c_bufs e) (c_rng e + 1)%Z).

(* non-vacuity of rerun_equal_after_history: a body satisfying the contract, a non-empty history *)
Definition ex_body_ok (e : Ctrl unit) : list (SStat) * Ctrl unit := (map (@st_stat unit) (c_steps e), e).

Example rerun_after_history_nonvacuous :
  fst (run2 unit _ ex_body_ok [0; 1] [Some 5%Z; Some 6%Z] tt
         (history unit _ ex_body_ok ex_fresh2 [([Some 0%Z; Some 1%Z], tt); ([Some 2%Z; Some 3%Z], tt)])) =
  fst (run2 unit _ ex_body_ok [0; 1] [Some 5%Z; Some 6%Z] tt ex_fresh2).
Proof. exact (rerun_equal_after_history unit _ ex_body_ok (live_rel_refl unit) _ _ tt ex_fresh2 (fresh_step [])). Qed.

(* Part 3: controllers in one process *)

Section WorldProofs.
  Variable D : Type.
  Variable Res : Type.
  Variable runc : nat -> Global -> Ctrl D -> Res * Ctrl D * Global.
  Variable dfl : Ctrl D.

  (* controller i neither reads nor writes the class-level component *)
  Definition global_pure (i : nat) : Prop :=
    forall g g2 c, snd (runc i g c) = g /\ fst (runc i g2 c) = fst (runc i g c).

  Notation run_in := (run_in runc).

  (* instance-level state: a run of controller i leaves every other controller object untouched *)
  Lemma run_in_other : forall i j w, i <> j -> nth j (w_ctrls (snd (run_in i dfl w))) dfl = nth j (w_ctrls w) dfl.
  Proof.
    intros i j w H. unfold Rerun.run_in. destruct (runc i (w_g w) (nth i (w_ctrls w) dfl)) as [[r c'] g'].
    simpl. apply nth_upd_other. exact H.
  Qed.

  Lemma run_in_pure : forall i g cs, global_pure i ->
    run_in i dfl (mkWorld g cs) =
    (fst (fst (runc i g (nth i cs dfl))), mkWorld g (upd cs i (snd (fst (runc i g (nth i cs dfl)))))).
  Proof.
    intros i g cs P. unfold Rerun.run_in. simpl. destruct (P g g (nth i cs dfl)) as [A _].
    destruct (runc i g (nth i cs dfl)) as [[r c'] g']. simpl in *. subst g'. reflexivity.
  Qed.

  (* two_controllers_independent: runs of two controllers that do not use class-level state commute —
     each gets the result it gets alone and the process ends in the same state *)
  Theorem two_controllers_independent : forall i j w, i <> j -> global_pure i -> global_pure j ->
    let '(ri, w1) := run_in i dfl w in let '(rj, w2) := run_in j dfl w1 in
    let '(rj', w1') := run_in j dfl w in let '(ri', w2') := run_in i dfl w1' in
    ri = ri' /\ rj = rj' /\ w2 = w2'.
  Proof.
    intros i j [g cs] Hij Pi Pj.
    rewrite (run_in_pure i g cs Pi), (run_in_pure j g cs Pj). cbv beta iota.
    rewrite (run_in_pure j g _ Pj), (run_in_pure i g _ Pi). cbv beta iota.
    rewrite !nth_upd_other by auto. repeat split. f_equal. apply upd_comm, Hij.
  Qed.
End WorldProofs.

(* the exception made explicit: a hook that reads and bumps a CLASS attribute (LogToPickleFile.counter,
   `type(self).counter += 1`) makes the result of one controller depend on the runs of another *)
Definition ex_runc_pickle (i : nat) (g : Global) (c : Ctrl unit) : nat * Ctrl unit * Global :=
  (g_pickle_counter g, c, mkGlobal (g_step_attrs g) (g_level_attrs g) (S (g_pickle_counter g))).

(* FrozenClass.add_attr appends to a CLASS-level list: creating a controller whose convergence
   controllers register status variables changes what every other controller's status objects accept *)
Definition add_attr (key : Z) (attrs : list Z) : list Z := if existsb (Z.eqb key) attrs then attrs else attrs ++ [key].
Definition allowed (key : Z) (declared attrs : list Z) : bool := existsb (Z.eqb key) attrs || existsb (Z.eqb key) declared.

Lemma add_attr_monotone : forall k key declared attrs, allowed k declared attrs = true -> allowed k declared (add_attr key attrs) = true.
Proof.
  intros k key declared attrs H. unfold allowed, add_attr in *. destruct (existsb (Z.eqb key) attrs); auto.
  rewrite existsb_app. apply orb_true_iff in H. destruct H as [H|H]; rewrite H; simpl; auto. apply orb_true_r.
Qed.

Example add_attr_leaks : allowed 7 [1; 2]%Z [] = false /\ allowed 7 [1; 2]%Z (add_attr 7 []) = true.
Proof. split; reflexivity. Qed.

(* Part 5: frame condition for caller-owned dicts shared between constructions *)

Section ConstructProofs.
  Variable Descr Ctl : Type.
  Variable build : Descr -> Ctl * Descr.
  Variable eqv : Descr -> Descr -> Prop.          (* the two dicts agree on everything a construction reads *)
  Hypothesis build_ext : forall d d', eqv d d' -> fst (build d) = fst (build d').
  (* FRAME: what a construction leaves in the caller's dicts is equivalent to what it found
     (it may add defaults it would compute anyway, it may not record decisions) *)
  Hypothesis build_frame : forall d, eqv (snd (build d)) d.

  Theorem shared_description_frame : forall (edit : Descr -> Descr),
    (forall d d', eqv d d' -> eqv (edit d) (edit d')) ->
    forall d, build_after Descr Ctl build edit d = fst (build (edit d)).
  Proof. intros edit He d. unfold build_after. apply build_ext. apply He. apply build_frame. Qed.
End ConstructProofs.

(* instance: the hook list of the unchanged Controller.__init__ satisfies the frame condition
   although the list object in the caller's dict grows by [DefaultHooks, CPUTimings] on every construction *)
Definition hooks_eqv (a b : list nat) : Prop := dedup_acc [] (0 :: 1 :: a) = dedup_acc [] (0 :: 1 :: b).

Example shared_hook_list_nonvacuous : forall user,
  build_after _ _ build_hooks (fun l => l) user = fst (build_hooks user).
Proof.
  intros. apply (shared_description_frame _ _ build_hooks hooks_eqv).
  - intros a b H. exact H.
  - intros a. reflexivity.
  - auto.
Qed.

(* a construction that RECORDS hooks registered by convergence controllers in the caller's list violates the frame *)
Definition build_hooks_recording (registered : list nat) (user : list nat) : list nat * list nat :=
  let written := 0 :: 1 :: user ++ registered in (dedup_acc [] written, written).
Example recording_breaks_frame :
  fst (build_hooks_recording [] (snd (build_hooks_recording [7] [5]))) <> fst (build_hooks_recording [] [5]).
Proof. vm_compute. discriminate. Qed.
