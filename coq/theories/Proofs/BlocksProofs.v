(* C16 — proofs about the BlockDecomposition model (Model/Blocks.v). *)
From Coq Require Import Permutation.
From PySDC Require Import Base.Tactics Model.Blocks.
Open Scope Z_scope.

Section Axis.
  Variables nP nB : Z.
  Hypothesis HnB : 0 < nB.

  (* localBounds in closed form: every block has nP / nB points, the first nP mod nB blocks one more *)
  Lemma iLoc_eq r : iLoc nP nB r = r * (nP / nB) + Z.min r (nP mod nB).
  Proof.
    unfold iLoc, b2z. cbv zeta. rewrite <- Z.mod_eq by lia.
    destruct (Z.leb_spec (nP mod nB) r), (Z.ltb_spec r (nP mod nB)); lia.
  Qed.

  Lemma nLoc_eq r : nLoc nP nB r = nP / nB + b2z (r <? nP mod nB).
  Proof. unfold nLoc. cbv zeta. rewrite <- Z.mod_eq by lia. lia. Qed.

  Lemma iLoc_0 : iLoc nP nB 0 = 0.
  Proof. rewrite iLoc_eq. lia. Qed.

  Lemma iLoc_step r : iLoc nP nB (r + 1) = iLoc nP nB r + nLoc nP nB r.
  Proof. rewrite !iLoc_eq, nLoc_eq. unfold b2z. destruct (Z.ltb_spec r (nP mod nB)); lia. Qed.

  Lemma iLoc_end : iLoc nP nB nB = nP.
  Proof. rewrite iLoc_eq. lia. Qed.

  Lemma iLoc_mono a b : 0 <= nP -> a <= b -> iLoc nP nB a <= iLoc nP nB b.
  Proof. intros HP H. rewrite !iLoc_eq. pose proof (Z.div_pos nP nB HP HnB). nia. Qed.

  Lemma axis_exists (m : nat) x : iLoc nP nB 0 <= x < iLoc nP nB (Z.of_nat m) ->
    exists r, 0 <= r < Z.of_nat m /\ iLoc nP nB r <= x < iLoc nP nB (r + 1).
  Proof.
    induction m; intros H.
    - simpl in H. lia.
    - destruct (Z_lt_le_dec x (iLoc nP nB (Z.of_nat m))) as [Hlt|Hge].
      + destruct (IHm ltac:(lia)) as (r & Hr & Hx). exists r. split; [lia|exact Hx].
      + exists (Z.of_nat m). replace (Z.of_nat m + 1) with (Z.of_nat (S m)) by lia. lia.
  Qed.

  (* every point of the axis lies in the interval [iLoc, iLoc + nLoc) of exactly one rank *)
  Theorem axis_tiling x : 0 <= x < nP ->
    exists r, 0 <= r < nB /\ iLoc nP nB r <= x < iLoc nP nB r + nLoc nP nB r /\
      forall r', 0 <= r' < nB -> iLoc nP nB r' <= x < iLoc nP nB r' + nLoc nP nB r' -> r' = r.
  Proof.
    intros Hx. assert (HP : 0 <= nP) by lia.
    destruct (axis_exists (Z.to_nat nB) x) as (r & Hr & Hin).
    { rewrite iLoc_0, Z2Nat.id, iLoc_end; lia. }
    exists r. rewrite <- iLoc_step. split; [lia|]. split; [exact Hin|].
    intros r' Hr' Hin'. rewrite <- iLoc_step in Hin'.
    (* the intervals are ordered like the ranks *)
    destruct (Z.lt_trichotomy r' r) as [Hlt|[Heq|Hgt]]; [|exact Heq|].
    - pose proof (iLoc_mono (r' + 1) r HP). lia.
    - pose proof (iLoc_mono (r + 1) r' HP). lia.
  Qed.

  (* the block sizes add up to the axis length *)
  Lemma nLoc_sum_nat (k : nat) :
    fold_right Z.add 0 (map (fun r => nLoc nP nB (Z.of_nat r)) (seq 0 k)) = iLoc nP nB (Z.of_nat k).
  Proof.
    induction k.
    - simpl. rewrite iLoc_0. reflexivity.
    - rewrite seq_S, map_app, fold_right_app, Nat2Z.inj_succ, <- Z.add_1_r, iLoc_step, <- IHk.
      cbn [map fold_right Nat.add].
      generalize (nLoc nP nB (Z.of_nat k)), (map (fun r => nLoc nP nB (Z.of_nat r)) (seq 0 k)).
      intros z l. induction l; simpl; lia.
  Qed.
End Axis.

Lemma zprod_cons x l : zprod (x :: l) = x * zprod l.
Proof. reflexivity. Qed.

Lemma zprod_app a b : zprod (a ++ b) = zprod a * zprod b.
Proof.
  induction a as [|x a IH]; cbn [app]; rewrite ?zprod_cons, ?IH; [|lia].
  change (zprod []) with 1. lia.
Qed.

Lemma zprod_perm l l' : Permutation l l' -> zprod l = zprod l'.
Proof. induction 1; rewrite ?zprod_cons; congruence || lia. Qed.

Lemma zprod_repeat_1 n : zprod (repeat 1 n) = 1.
Proof. induction n; [reflexivity|]. cbn [repeat]. rewrite zprod_cons, IHn. reflexivity. Qed.

Lemma Forall_repeat (P : Z -> Prop) x n : P x -> Forall P (repeat x n).
Proof. intros H. induction n; constructor; assumption. Qed.

Definition in_dims (idx dims : list Z) : Prop := Forall2 (fun i b => 0 <= i < b) idx dims.

Lemma unravel_in_dims rdims g : Forall (fun b => 0 < b) rdims -> in_dims (unravel_rev rdims g) rdims.
Proof.
  intros H. revert g. induction H; intros g; cbn [unravel_rev]; constructor.
  - apply Z.mod_pos_bound. assumption.
  - apply IHForall.
Qed.

Lemma ravel_unravel_rev rdims g : Forall (fun b => 0 < b) rdims -> 0 <= g < zprod rdims ->
  ravel_rev rdims (unravel_rev rdims g) = g.
Proof.
  intros H. revert g. induction H as [|b r Hb Hr IH]; intros g Hg; cbn [unravel_rev ravel_rev].
  - change (zprod []) with 1 in Hg. lia.
  - rewrite zprod_cons in Hg. rewrite IH; [lia|].
    split; [apply Z.div_pos; lia|apply Z.div_lt_upper_bound; lia].
Qed.

Lemma unravel_ravel_rev rdims idx : in_dims idx rdims ->
  unravel_rev rdims (ravel_rev rdims idx) = idx /\ 0 <= ravel_rev rdims idx < zprod rdims.
Proof.
  induction 1 as [|i b idx r Hi H [IH1 IH2]]; cbn [unravel_rev ravel_rev].
  - split; [reflexivity|change (zprod []) with 1; lia].
  - rewrite (Z.mul_comm b), Z.mod_add, Z.div_add, Z.mod_small, Z.div_small, Z.add_0_l, IH1, zprod_cons by lia.
    split; [reflexivity|nia].
Qed.

Lemma in_dims_rev idx dims : in_dims idx dims -> in_dims (rev idx) (rev dims).
Proof.
  induction 1; simpl; [constructor|]. apply Forall2_app; [assumption|]. constructor; [assumption|constructor].
Qed.

Lemma zprod_rev l : zprod (rev l) = zprod l.
Proof. symmetry. apply zprod_perm, Permutation_rev. Qed.

(* a valid rank has a block index inside the block grid, and ravel recovers the rank *)
Lemma ranks_some o dims g : Forall (fun b => 0 < b) dims -> 0 <= g < zprod dims ->
  exists rk, ranks o dims g = Some rk /\ in_dims rk dims /\ ravel o dims rk = g.
Proof.
  intros Hd Hg. unfold ranks.
  replace ((0 <=? g) && (g <? zprod dims)) with true by lia.
  destruct o; eexists; (split; [reflexivity|]); cbn [ravel].
  - apply Forall_rev in Hd. rewrite <- zprod_rev in Hg. split.
    + rewrite <- (rev_involutive dims) at 2. apply in_dims_rev, unravel_in_dims, Hd.
    + rewrite rev_involutive. apply ravel_unravel_rev; assumption.
  - split; [apply unravel_in_dims, Hd|apply ravel_unravel_rev; assumption].
Qed.

(* every block index is the index of exactly the rank ravel computes *)
Lemma ranks_ravel o dims rk : in_dims rk dims ->
  0 <= ravel o dims rk < zprod dims /\ ranks o dims (ravel o dims rk) = Some rk.
Proof.
  intros H. unfold ranks. destruct o; cbn [ravel].
  - destruct (unravel_ravel_rev (rev dims) (rev rk) (in_dims_rev _ _ H)) as [E1 E2].
    rewrite zprod_rev in E2. split; [exact E2|].
    replace (_ && _) with true by lia. rewrite E1, rev_involutive. reflexivity.
  - destruct (unravel_ravel_rev dims rk H) as [E1 E2]. split; [exact E2|].
    replace (_ && _) with true by lia. rewrite E1. reflexivity.
Qed.

Lemma ranks_none o dims g : ~ (0 <= g < zprod dims) -> ranks o dims g = None.
Proof. intros H. unfold ranks. replace (_ && _) with false by lia. reflexivity. Qed.

Definition boxb (x gs nB rk : list Z) : bool :=
  in_box x (map3 (fun r n b => iLoc n b r) rk gs nB) (map3 (fun r n b => nLoc n b r) rk gs nB).

(* axis_tiling on every axis *)
Lemma box_unique x gs nB :
  Forall (fun b => 0 < b) nB -> Forall2 (fun xi g => 0 <= xi < g) x gs -> length gs = length nB ->
  exists rk, in_dims rk nB /\ boxb x gs nB rk = true /\
    forall rk', in_dims rk' nB -> boxb x gs nB rk' = true -> rk' = rk.
Proof.
  intros HnB Hx. revert nB HnB. induction Hx as [|xi g x gs Hxi Hx IH]; intros nB HnB Hlen.
  - destruct nB; [|discriminate]. exists []. split; [constructor|]. split; [reflexivity|].
    intros rk' H _. inversion H. reflexivity.
  - destruct nB as [|b nB]; [discriminate|]. inversion HnB as [|? ? Hb HnB']; subst.
    destruct (IH nB HnB' ltac:(simpl in Hlen; lia)) as (rk & Hrk & Hbox & Huniq).
    destruct (axis_tiling g b Hb xi Hxi) as (r & Hr & Hin & Hu).
    exists (r :: rk). split; [constructor; assumption|]. unfold boxb in *. split.
    + cbn [map3 in_box]. rewrite Hbox. lia.
    + intros rk' Hrk' Hbox'. inversion Hrk' as [|r' ? rk'' ? Hr' Hrk'']; subst.
      cbn [map3 in_box] in Hbox'. apply andb_prop in Hbox' as [Ha Hb'].
      f_equal; [apply Hu; [exact Hr'|lia]|apply Huniq; assumption].
Qed.

(* for positive block counts, every grid point is owned by exactly one rank *)
Theorem owned_by_one_rank o gs nB x :
  Forall (fun b => 0 < b) nB -> length gs = length nB -> Forall2 (fun xi g => 0 <= xi < g) x gs ->
  exists g, 0 <= g < zprod nB /\ owns o gs nB g x = true /\
    forall g', owns o gs nB g' x = true -> g' = g.
Proof.
  intros HnB Hlen Hx.
  destruct (box_unique x gs nB HnB Hx Hlen) as (rk & Hrk & Hbox & Huniq).
  destruct (ranks_ravel o nB rk Hrk) as [Hg Hr].
  exists (ravel o nB rk). split; [exact Hg|]. unfold owns, localBounds. split.
  - rewrite Hr. exact Hbox.
  - intros g' Hown.
    destruct (Z_lt_le_dec g' 0) as [Hneg|Hnn]; [rewrite ranks_none in Hown by lia; discriminate|].
    destruct (Z_lt_le_dec g' (zprod nB)) as [Hlt|Hge]; [|rewrite ranks_none in Hown by lia; discriminate].
    destruct (ranks_some o nB g' HnB ltac:(lia)) as (rk' & E & Hin & Hrav).
    rewrite E in Hown. rewrite <- Hrav. f_equal. apply Huniq; assumption.
Qed.

Lemma insert_perm x l : Permutation (insert x l) (x :: l).
Proof.
  induction l as [|y l IH]; cbn [insert]; [reflexivity|]. destruct (x <=? y); [reflexivity|].
  rewrite IH. apply perm_swap.
Qed.

Lemma sort_perm l : Permutation (sort l) l.
Proof. induction l as [|x l IH]; [reflexivity|]. etransitivity; [apply insert_perm|apply perm_skip, IH]. Qed.

Lemma zprod_sort l : zprod (sort l) = zprod l.
Proof. apply zprod_perm, sort_perm. Qed.

Lemma length_sort l : length (sort l) = length l.
Proof. apply Permutation_length, sort_perm. Qed.

Lemma Forall_sort (P : Z -> Prop) l : Forall P l -> Forall P (sort l).
Proof. apply Permutation_Forall. symmetry. apply sort_perm. Qed.

Lemma zprod_mul_head i l : (0 < length l)%nat -> zprod (mul_head i l) = i * zprod l.
Proof. destruct l; cbn [length mul_head]; [lia|]. rewrite !zprod_cons. lia. Qed.

Lemma length_mul_head i l : length (mul_head i l) = length l.
Proof. destruct l; reflexivity. Qed.

Lemma Forall_mul_head i l : 0 < i -> Forall (fun b => 0 < b) l -> Forall (fun b => 0 < b) (mul_head i l).
Proof. intros Hi H. destruct H; simpl; constructor; [nia|assumption]. Qed.

(* one round of a division loop; the quotient gets a name so that lia sees no division afterwards *)
Lemma div_step n i : 2 <= i -> 1 <= n -> n mod i = 0 -> exists q, n / i = q /\ n = i * q /\ 1 <= q < n.
Proof.
  intros Hi Hn E. exists (n / i). pose proof (Z.div_mod n i ltac:(lia)) as H. rewrite E, Z.add_0_r in H.
  split; [reflexivity|]. split; [exact H|nia].
Qed.

Definition cg_inv (N : Z) (dim : nat) (st : Z * list Z) : Prop :=
  fst st * zprod (snd st) = N /\ 1 <= fst st /\ Forall (fun b => 0 < b) (snd st) /\ length (snd st) = dim.

Lemma factor_out_inv N dim fuel i st : (0 < dim)%nat -> 2 <= i -> cg_inv N dim st -> cg_inv N dim (factor_out fuel i st).
Proof.
  intros Hd Hi. revert st. induction fuel; intros [n bl] H; [exact H|].
  cbn [factor_out]. destruct (Z.eqb_spec (n mod i) 0) as [E|]; [|exact H].
  apply IHfuel. destruct H as (H1 & H2 & H3 & H4). cbn [fst snd] in *.
  destruct (div_step n i Hi H2 E) as (q & -> & Hn & Hq). clear E.
  unfold cg_inv. cbn [fst snd]. rewrite zprod_sort, zprod_mul_head, length_sort, length_mul_head by lia.
  split; [nia|]. split; [lia|]. split; [apply Forall_sort, Forall_mul_head; [lia|assumption]|assumption].
Qed.

(* the while-loop really stops by itself: the fuel is never exhausted *)
Lemma factor_out_done fuel i n bl : 2 <= i -> 1 <= n -> (Z.to_nat n <= fuel)%nat ->
  fst (factor_out fuel i (n, bl)) mod i <> 0.
Proof.
  intros Hi. revert n bl. induction fuel; intros n bl Hn Hf; [lia|].
  cbn [factor_out]. destruct (Z.eqb_spec (n mod i) 0) as [E|E]; [|exact E].
  destruct (div_step n i Hi Hn E) as (q & -> & Hd & Hq). clear E.
  apply IHfuel; lia.
Qed.

Lemma chatgpt_loop_inv N dim : (0 < dim)%nat -> 1 <= N -> cg_inv N dim (chatgpt_loop N dim).
Proof.
  intros Hd HN. unfold chatgpt_loop.
  set (is := map (fun k => 2 + Z.of_nat k) (seq 0 (Z.to_nat (Z.sqrt N - 1)))).
  assert (His : Forall (fun i => 2 <= i) is).
  { apply Forall_forall. intros i Hin. apply in_map_iff in Hin as (k & <- & _). lia. }
  assert (H0 : cg_inv N dim (N, repeat 1 dim)).
  { unfold cg_inv. cbn [fst snd]. rewrite zprod_repeat_1, repeat_length.
    split; [lia|]. split; [lia|]. split; [apply Forall_repeat; lia|reflexivity]. }
  revert H0. generalize (N, repeat 1 dim). induction His; intros st H0; cbn [fold_left]; [exact H0|].
  apply IHHis. apply factor_out_inv; assumption.
Qed.

Definition blocks_ok (N : Z) (d : nat) (bl : list Z) : Prop :=
  zprod bl = N /\ length bl = d /\ Forall (fun b => 0 < b) bl.

Lemma chatgpt_spec N dim : (0 < dim)%nat -> 1 <= N -> blocks_ok N dim (chatgpt N dim).
Proof.
  intros Hd HN. unfold chatgpt, blocks_ok. pose proof (chatgpt_loop_inv N dim Hd HN) as H.
  destruct (chatgpt_loop N dim) as [rest bl]. destruct H as (H1 & H2 & H3 & H4). cbn [fst snd] in *.
  rewrite zprod_sort, length_sort. destruct (Z.ltb_spec 1 rest).
  - rewrite zprod_mul_head, length_mul_head by lia.
    split; [lia|]. split; [assumption|]. apply Forall_sort, Forall_mul_head; [lia|assumption].
  - split; [nia|]. split; [assumption|]. apply Forall_sort; assumption.
Qed.

Lemma count_div_spec fuel fac rest : 2 <= fac -> 1 <= rest ->
  zprod (repeat fac (fst (count_div fuel fac rest))) * snd (count_div fuel fac rest) = rest /\
  1 <= snd (count_div fuel fac rest).
Proof.
  intros Hf. revert rest. induction fuel; intros rest Hr; cbn [count_div].
  - cbn [fst snd repeat]. change (zprod []) with 1. lia.
  - destruct (Z.eqb_spec (rest mod fac) 0) as [E|E]; [|cbn [fst snd repeat]; change (zprod []) with 1; lia].
    destruct (div_step rest fac Hf Hr E) as (q & -> & Hd & Hq). clear E.
    destruct (IHfuel q ltac:(lia)) as [I1 I2].
    destruct (count_div fuel fac q) as [e r]. cbn [fst snd repeat] in *. rewrite zprod_cons.
    split; [|exact I2]. nia.
Qed.

Lemma count_div_done fuel fac rest : 2 <= fac -> 1 <= rest -> (Z.to_nat rest <= fuel)%nat ->
  snd (count_div fuel fac rest) mod fac <> 0.
Proof.
  intros Hf. revert rest. induction fuel; intros rest Hr Hfu; [lia|].
  cbn [count_div]. destruct (Z.eqb_spec (rest mod fac) 0) as [E|E]; [|exact E].
  destruct (div_step rest fac Hf Hr E) as (q & -> & Hd & Hq). clear E.
  specialize (IHfuel q ltac:(lia) ltac:(lia)).
  destruct (count_div fuel fac q). exact IHfuel.
Qed.

(* the cofactor left after the twos and threes is a multiplier only if it is not 1 *)
Lemma cofactor_spec r : 1 <= r ->
  zprod (if 1 <? r then [r] else []) = r /\ Forall (fun b => 0 < b) (if 1 <? r then [r] else []).
Proof. intros H. destruct (Z.ltb_spec 1 r); cbn; split; try lia; repeat constructor; lia. Qed.

Lemma multipliers_spec N dim : 1 <= N -> (dim = 1 \/ dim = 2 \/ dim = 3)%nat ->
  zprod (multipliers N dim) = N /\ Forall (fun b => 0 < b) (multipliers N dim).
Proof.
  intros HN [-> | [-> | ->]]; cbn [multipliers].
  - apply cofactor_spec, HN.
  - pose proof (count_div_spec (Z.to_nat N) 2 N ltac:(lia) HN) as [I1 I2].
    destruct (count_div (Z.to_nat N) 2 N) as [e2 r]. cbn [fst snd] in *.
    destruct (cofactor_spec r I2) as [C1 C2]. rewrite zprod_app, C1. split; [lia|].
    apply Forall_app. split; [exact C2|apply Forall_repeat; lia].
  - pose proof (count_div_spec (Z.to_nat N) 2 N ltac:(lia) HN) as [I1 I2].
    destruct (count_div (Z.to_nat N) 2 N) as [e2 r]. cbn [fst snd] in *.
    pose proof (count_div_spec (Z.to_nat r) 3 r ltac:(lia) I2) as [J1 J2].
    destruct (count_div (Z.to_nat r) 3 r) as [e3 r']. cbn [fst snd] in *.
    destruct (cofactor_spec r' J2) as [C1 C2]. rewrite !zprod_app, C1. split; [nia|].
    repeat (apply Forall_app; split); [exact C2|apply Forall_repeat; lia..].
Qed.

Lemma argmax_go_bound d gs bl best dmax :
  argmax_go d gs bl best dmax = dmax \/ (d <= argmax_go d gs bl best dmax < d + length bl)%nat.
Proof.
  revert d bl best dmax. induction gs as [|g gs IH]; intros d bl best dmax; cbn [argmax_go]; [left; reflexivity|].
  destruct bl as [|b bl]; [left; reflexivity|]. cbn [length].
  destruct (best <=? (g + b - 1) / b).
  - destruct (IH (S d) bl ((g + b - 1) / b) d) as [E|E]; right; lia.
  - destruct (IH (S d) bl best dmax) as [E|E]; [left; exact E|right; lia].
Qed.

Lemma argmax_lt gs bl : (0 < length bl)%nat -> (argmax gs bl < length bl)%nat.
Proof. intros H. unfold argmax. destruct (argmax_go_bound 0 gs bl (-1) 0) as [E|E]; lia. Qed.

Lemma mul_at_spec k fac N d l : (k < d)%nat -> 0 < fac -> blocks_ok N d l -> blocks_ok (fac * N) d (mul_at k fac l).
Proof.
  intros Hk Hf (<- & <- & H). revert k Hk. induction H as [|x l Hx Hl IH]; intros k Hk; [simpl in Hk; lia|].
  destruct k; cbn [mul_at length]; unfold blocks_ok; rewrite !zprod_cons.
  - split; [lia|]. split; [reflexivity|]. constructor; [nia|assumption].
  - destruct (IH k ltac:(simpl in Hk; lia)) as (I1 & I2 & I3). cbn [length].
    split; [nia|]. split; [lia|]. constructor; assumption.
Qed.

Lemma fold_mul_at_spec gs d ms : (0 < d)%nat -> Forall (fun b => 0 < b) ms -> forall N bl, blocks_ok N d bl ->
  blocks_ok (zprod ms * N) d (fold_left (fun bl0 fac => mul_at (argmax gs bl0) fac bl0) ms bl).
Proof.
  intros Hd. induction 1 as [|m ms Hm Hms IH]; intros N bl Hbl; cbn [fold_left].
  - change (zprod []) with 1. rewrite Z.mul_1_l. exact Hbl.
  - rewrite zprod_cons, (Z.mul_comm m), <- Z.mul_assoc. apply IH, mul_at_spec; [|assumption..].
    destruct Hbl as (_ & <- & _). apply argmax_lt, Hd.
Qed.

Lemma hybrid_spec N gs : 1 <= N -> (length gs = 1 \/ length gs = 2 \/ length gs = 3)%nat ->
  blocks_ok N (length gs) (hybrid N gs).
Proof.
  intros HN Hd. unfold hybrid.
  destruct (multipliers_spec N (length gs) HN Hd) as [M1 M2].
  rewrite <- M1 at 1. rewrite <- (Z.mul_1_r (zprod _)). apply fold_mul_at_spec; [lia|exact M2|].
  split; [apply zprod_repeat_1|]. split; [apply repeat_length|apply Forall_repeat; lia].
Qed.

(* prod(nBlocks) = nProcs, one block count per axis, all positive — for both algorithms *)
Theorem nblocks_product a nProcs gs nb : 1 <= nProcs -> nBlocks a nProcs gs = Some nb ->
  blocks_ok nProcs (length gs) nb.
Proof.
  intros HN H. unfold nBlocks in H.
  assert (Hd : (length gs = 1 \/ length gs = 2 \/ length gs = 3)%nat /\
               Some (match a with ChatGPT => chatgpt nProcs (length gs) | Hybrid => hybrid nProcs gs end) = Some nb).
  { destruct (length gs) as [|[|[|[|n]]]]; try discriminate; split; auto. }
  destruct Hd as [Hd E]. injection E as <-. destruct a.
  - apply chatgpt_spec; lia.
  - apply hybrid_spec; assumption.
Qed.

Lemma nblocks_defined a nProcs gs : (length gs = 1 \/ length gs = 2 \/ length gs = 3)%nat ->
  exists nb, nBlocks a nProcs gs = Some nb.
Proof. intros [E|[E|E]]; unfold nBlocks; rewrite E; eauto. Qed.

(* C16 partition clause, end to end: whatever nProcs >= 1, 1-3-D grid and algorithm, the blocks
   that localBounds assigns to the ranks 0..nProcs-1 partition the grid *)
Theorem partition a o nProcs gs : 1 <= nProcs -> (length gs = 1 \/ length gs = 2 \/ length gs = 3)%nat ->
  exists nb, nBlocks a nProcs gs = Some nb /\ zprod nb = nProcs /\
    forall x, Forall2 (fun xi g => 0 <= xi < g) x gs ->
      exists g, 0 <= g < nProcs /\ owns o gs nb g x = true /\
        forall g', owns o gs nb g' x = true -> g' = g.
Proof.
  intros HN Hd. destruct (nblocks_defined a nProcs gs Hd) as [nb E].
  destruct (nblocks_product a nProcs gs nb HN E) as (P1 & P2 & P3).
  exists nb. split; [exact E|]. split; [exact P1|].
  intros x Hx. rewrite <- P1. apply owned_by_one_rank; [assumption|lia|assumption].
Qed.
