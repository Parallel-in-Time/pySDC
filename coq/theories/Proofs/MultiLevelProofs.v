(* Proofs about Model/MultiLevel.v: a complete multi-level iteration (any number of levels, any number of
   sweeps per level) leaves the fine collocation solution unchanged (C10, "on any number of levels"). *)
From Coq Require Import List Arith Bool Lia Ring.
From PySDC Require Import Model.Sweep Model.Transfer Model.MultiLevel Proofs.SweepProofs Proofs.TransferProofs.
Import ListNotations.

Section MultiLevelProofs.
  Context {K : Type} (kO kI : K) (kadd kmul ksub : K -> K -> K) (kopp : K -> K) (keqb : K -> K -> bool).
  Hypothesis Rth : ring_theory kO kI kadd kmul ksub kopp (@eq K).
  Hypothesis keqb_true : forall a b, keqb a b = true -> a = b.
  Context {X : Type}.
  Notation V := (X -> K).
  Variable t0 : K.
  Variable imex : bool.
  Local Infix "+!" := kadd (at level 50, left associativity).
  Local Infix "*!" := kmul (at level 40, left associativity).
  Local Infix "-!" := ksub (at level 50, left associativity).
  Notation sumf := (sumf kO kadd).
  Notation level := (@level K X).
  Notation xfer := (@xfer K X).
  Notation lstate := (@lstate K X).
  Notation sweep1 := (sweep1 kO kadd kmul ksub keqb t0 imex).
  Notation sweepn := (sweepn kO kadd kmul ksub keqb t0 imex).
  Notation vcycle := (vcycle kO kadd kmul ksub keqb t0 imex).
  Notation restrict_to := (restrict_to kO kadd kmul ksub t0 imex).
  Notation np := (nparts imex).
  Notation prolong_from := (prolong_from kadd kmul ksub t0).

  (* what is assumed of a level: the solver contract (uniqueness half), extensionality of eval_f, a lower
     triangular preconditioner whose diagonal is decided by the code's own test *)
  Definition level_ok (L : level) : Prop :=
    solver_left_inverse kmul ksub (lsolve L) (lfeval L) 0 /\ feval_ext (lfeval L) /\ lower_triangular kO (lQI L) /\
    (if imex then strictly_lower_triangular kO (lQE L)
     else forall m, 1 <= m <= lM L -> ldt L *! lQI L m m <> kO \/ keqb (ldt L *! lQI L m m) kO = true).
  (* what is assumed of a transfer: linear space operators, rows of Rcoll summing to one *)
  Definition xfer_ok (T : xfer) (Lf Lc : level) : Prop :=
    (forall a b x, xRs T (vadd kadd a b) x = xRs T a x +! xRs T b x) /\
    (forall a b x, xRs T (vsub ksub a b) x = xRs T a x -! xRs T b x) /\
    (forall x, xRs T (vzero kO) x = kO) /\
    (forall a b : V, (forall y, a y = b y) -> forall x, xRs T a x = xRs T b x) /\
    (forall a b x, xPs T (vsub ksub a b) x = xPs T a x -! xPs T b x) /\
    (forall a b : V, (forall y, a y = b y) -> forall x, xPs T a x = xPs T b x) /\
    (forall n, 1 <= n <= lM Lc -> sumf (fun m => xRcoll T n m) 1 (lM Lf) = kI).
  Fixpoint hier_ok (L : level) (rest : list (xfer * level)) : Prop :=
    level_ok L /\ match rest with [] => True | (T, Lc) :: r => xfer_ok T L Lc /\ hier_ok Lc r end.

  Definition tau_uniform (M : nat) (tau : nat -> option V) : Prop :=
    forall m, 1 <= m <= M -> (tau 1 = None <-> tau m = None).

  (* zero defect = the collocation equation  U = u0 + dt Q F(U) + tau  with F the sum of all right-hand-side parts
     (residual_zero_iff_collocation / residual_zero_iff_collocation2) *)
  Definition zero_defect (L : level) (tau : nat -> option V) (s : lstate) : Prop :=
    forall m, 1 <= m <= lM L -> forall x,
      residual_vec kO kadd kmul ksub (lM L) (ldt L) (lQ L) np (fst s) (snd s) tau m x = kO.
  (* the level holds the solution of ITS collocation problem (with its FAS correction tau) *)
  Definition holds_solution (L : level) (tau : nat -> option V) (s : lstate) : Prop :=
    consistent kadd kmul (lM L) (ldt L) t0 (lnodes L) (lfeval L) (fst s) (snd s) /\
    zero_defect L tau s /\
    tau_uniform (lM L) tau.

  (* same values (initial value and all nodes) and same right-hand sides at the nodes, pointwise *)
  Definition same (L : level) (s' s : lstate) : Prop :=
    (forall m, m <= lM L -> forall x, fst s' m x = fst s m x) /\
    (forall m, 1 <= m <= lM L -> forall p x, snd s' m p x = snd s m p x).

  Lemma level_ok_ext L : level_ok L -> feval_ext (lfeval L).
  Proof. intros H. apply H. Qed.

  Lemma same_refl L s : same L s s.
  Proof. split; intros; reflexivity. Qed.
  Lemma same_trans L a b c : same L a b -> same L b c -> same L a c.
  Proof.
    intros [A1 A2] [B1 B2]. split; intros.
    - rewrite A1 by assumption. apply B1. assumption.
    - rewrite A2 by assumption. apply B2. assumption.
  Qed.

  Lemma holds_solution_ext L tau tau' s s' :
    feval_ext (lfeval L) -> holds_solution L tau s -> same L s' s -> teq (lM L) tau' tau -> holds_solution L tau' s'.
  Proof.
    intros Hext (Hcons & Hz & Htau) [Su Sf] Ht. split; [|split].
    - intros m Hm p x. rewrite (Sf m Hm), (Hcons m Hm). symmetry. apply Hext. intros y. apply Su. lia.
    - intros m Hm x. etransitivity; [|exact (Hz m Hm x)]. rewrite !(residual_is_defect kO kI kadd kmul ksub kopp Rth).
      rewrite (Su m), (Su 0), (tauval_teq kO _ tau' tau m x Ht Hm) by lia.
      do 4 f_equal. apply sumf_ext. intros j Hj. f_equal. apply (ftot_ext kO kadd). intros p. apply Sf. lia.
    - intros m Hm. rewrite (teq_none _ _ _ 1 Ht), (teq_none _ _ _ m Ht) by lia. apply Htau, Hm.
  Qed.

  (* how fixed-point steps compose: s1 is s up to `same`, hence holds the solution too, hence the next step fixes it *)
  Lemma same_chain L tau s s1 s2 :
    feval_ext (lfeval L) -> holds_solution L tau s -> same L s1 s -> (holds_solution L tau s1 -> same L s2 s1) -> same L s2 s.
  Proof.
    intros Hext Hs H1 H2. apply (same_trans L s2 s1 s); [|exact H1]. apply H2. exact (holds_solution_ext L tau tau s s1 Hext Hs H1 (teq_refl _ tau)).
  Qed.

  Lemma sweep1_frame L tau (s : lstate) :
    fst (sweep1 L tau s) 0 = fst s 0 /\
    forall m, 1 <= m <= lM L ->
      snd (sweep1 L tau s) m = lfeval L (tnode kadd kmul (ldt L) t0 (lnodes L) m) (fst (sweep1 L tau s) m).
  Proof. unfold MultiLevel.sweep1. destruct imex; apply update_nodes_frame. Qed.

  Lemma sweep1_fixed L tau s :
    level_ok L -> holds_solution L tau s -> same L (sweep1 L tau s) s.
  Proof.
    intros (Hli & Hext & Htri & Hkind) (Hcons & Hz & _).
    assert (Hu : forall m, 1 <= m <= lM L -> forall x, fst (sweep1 L tau s) m x = fst s m x).
    { unfold MultiLevel.sweep1. unfold zero_defect, nparts in Hz. destruct imex.
      - apply (imex_collocation_is_fixed_point kO kI kadd kmul ksub kopp Rth (lM L) (ldt L) t0 (lnodes L) (lQ L)
                 (lsolve L) (lfeval L) (lQI L) (lQE L) (fst s) (snd s) tau Hli Hext Htri Hkind Hcons).
        intros m Hm x. apply (residual_zero_iff_collocation2 kO kI kadd kmul ksub kopp Rth), Hz, Hm.
      - apply (gi_collocation_is_fixed_point kO kI kadd kmul ksub kopp keqb Rth keqb_true (lM L) (ldt L) t0 (lnodes L) (lQ L)
                 (lsolve L) (lfeval L) (lQI L) (fst s) (snd s) tau Hli Hext Htri Hcons).
        intros m Hm x. apply (residual_zero_iff_collocation kO kI kadd kmul ksub kopp Rth), Hz, Hm. }
    destruct (sweep1_frame L tau s) as [H0 Hf].
    split.
    - intros m Hm x. destruct (Nat.eq_dec m 0) as [->|Hne]; [rewrite H0; reflexivity | apply Hu; lia].
    - intros m Hm p x. rewrite (Hf m Hm), (Hcons m Hm). apply Hext. intros y. apply Hu. exact Hm.
  Qed.

  Lemma sweepn_fixed n : forall L tau s,
    level_ok L -> holds_solution L tau s -> same L (sweepn n L tau s) s.
  Proof.
    induction n as [|n IH]; intros L tau s Hok Hs; cbn [MultiLevel.sweepn]; [apply same_refl|].
    apply (same_chain L tau s (sweep1 L tau s) _ (level_ok_ext L Hok) Hs); [apply sweep1_fixed | apply IH]; assumption.
  Qed.

  Lemma restrict_holds T Lf Lc tau s :
    xfer_ok T Lf Lc -> holds_solution Lf tau s ->
    let G := restrict_to T Lf Lc tau s in
    holds_solution Lc (Gtau G) (Gu G, Gf G).
  Proof.
    intros (Radd & Rsub & Rzero & Rext & _ & _ & Hrow) (Hcons & Hz & Htau) G.
    split; [apply restrict_consistent | split].
    - intros k Hk z.
      exact (restricted_solution_has_zero_coarse_defect kO kI kadd kmul ksub kopp Rth (lM Lf) (lM Lc) (ldt Lf) (ldt Lc) t0
               (lnodes Lc) (lQ Lf) (lQ Lc) (lfeval Lc) (xRs T) (xRcoll T) Radd Rsub Rzero np (fst s) (snd s) tau Htau
               Hz Rext k Hk (Hrow k Hk) z).
    - intros m Hm. split; intros H; discriminate H.
  Qed.

  Lemma restrict_to_ext T Lf Lc tau tau' (s s' : lstate) :
    xfer_ok T Lf Lc -> feval_ext (lfeval Lc) -> 1 <= lM Lf -> same Lf s s' -> teq (lM Lf) tau tau' ->
    let G := restrict_to T Lf Lc tau s in
    let G' := restrict_to T Lf Lc tau' s' in
    (forall n x, Gu G n x = Gu G' n x) /\ (forall n p x, Gf G n p x = Gf G' n p x) /\ forall N, teq N (Gtau G) (Gtau G').
  Proof.
    intros (_ & _ & _ & Rext & _) Hextc HM [Eu Ef] Et. apply (restrict_ext kO kI kadd kmul ksub kopp Rth); assumption.
  Qed.

  (* prolongation from a coarse level whose values and right-hand sides equal their old copies leaves the fine level
     unchanged — values-only prolongation (prolong) and prolongation of values and right-hand sides (prolong_f, finter) alike *)
  Lemma prolong_same T Lf Lc (G : @coarse K X) (s : lstate) :
    xfer_ok T Lf Lc -> feval_ext (lfeval Lf) ->
    consistent kadd kmul (lM Lf) (ldt Lf) t0 (lnodes Lf) (lfeval Lf) (fst s) (snd s) ->
    (forall m, 1 <= m <= lM Lc -> forall y, Gu G m y = Guold G m y) ->
    (forall m, 1 <= m <= lM Lc -> forall p y, Gf G m p y = Gfold G m p y) ->
    same Lf (prolong_from T Lf Lc G s) s.
  Proof.
    intros (_ & _ & _ & _ & Psub & Pext & _) Hext Hcons Hsc Hf.
    pose proof (prolong_zero_correction kO kI kadd kmul ksub kopp Rth (lM Lc) (xPs T) (xPcoll T) Psub Pext G (fst s) Hsc) as Hu.
    unfold MultiLevel.prolong_from. destruct (xfinter T); (split; [intros m _ x; apply Hu|]); intros m Hm p x.
    - exact (prolong_f_zero_correction kO kI kadd kmul ksub kopp Rth (lM Lc) (xPs T) (xPcoll T) Psub Pext G (fst s) (snd s) Hf m p x).
    - cbn [prolong snd]. destruct (Nat.eqb_spec m 0); [lia|].
      rewrite (Hcons m Hm). apply Hext. intros y. apply Hu.
  Qed.

  Theorem vcycle_fixed_point : forall rest L tau s,
    hier_ok L rest -> holds_solution L tau s -> same L (vcycle L rest tau s) s.
  Proof.
    induction rest as [|[T Lc] rest IH]; intros L tau s Hh Hs; cbn [MultiLevel.vcycle].
    - apply sweepn_fixed; [apply Hh | exact Hs].
    - destruct Hh as (Hok & Hx & Hrest). pose proof (level_ok_ext L Hok) as Hext.
      (* pre-sweeps, coarse-grid correction, post-sweeps: each step fixes a state that holds the solution *)
      apply (same_chain L tau s _ _ Hext Hs (sweepn_fixed (lpre L) L tau s Hok Hs)). intros Hs1.
      set (s1 := sweepn (lpre L) L tau s) in *.
      eapply (same_chain L tau s1); [exact Hext | exact Hs1 | | intros Hs2; apply sweepn_fixed; assumption].
      (* the coarse levels return the restricted state (induction), which restriction also stored as the old one *)
      destruct (IH Lc _ _ Hrest (restrict_holds T L Lc tau s1 Hx Hs1)) as [Hc Hcf].
      apply (prolong_same T L Lc _ s1 Hx Hext (proj1 Hs1)); cbn [Gu Gf Guold Gfold]; [intros m Hm y; apply Hc; lia | exact Hcf].
  Qed.
End MultiLevelProofs.
