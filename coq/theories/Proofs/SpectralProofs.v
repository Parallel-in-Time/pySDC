(* C17 — proofs about Model/Spectral.v.
   Polynomial identities are proved coefficientwise ([peq]); [peq] implies equality of values ([peval_peq]).
   Matrices are compared below a size N ([meq N]); a basis is read as the matrix of its coefficients ([cmat]),
   so that "column j of M expands b1_j in b2" is the matrix equation  cmat b1 = cmat b2 * M.
   U2T and USinv lam are row scalings of the parity triangle T2D, and column j+1 of DT is j+1 times column j of U2T;
   T2U is S_0 and U2T its inverse.
   The Gegenbauer facts are proved by induction over the three-term recurrence, for every degree and every lam >= 1. *)
From Coq Require Import ZArith QArith Qfield List Bool Lia Lqa.
From PySDC Require Import Base.Dyadic Base.DyadicFast Base.Poly Model.Spectral.
Import ListNotations.
Open Scope Q_scope.

Lemma Qn_S n : Qn (S n) == Qn n + 1.
Proof. unfold Qn. rewrite Nat2Z.inj_succ. unfold Z.succ. rewrite inject_Z_plus. reflexivity. Qed.

Lemma Qn_0 : Qn 0 == 0.
Proof. reflexivity. Qed.

Lemma Qn_add a b : Qn (a + b) == Qn a + Qn b.
Proof. unfold Qn. rewrite Nat2Z.inj_add, inject_Z_plus. reflexivity. Qed.

Lemma Qn_nonneg n : 0 <= Qn n.
Proof. unfold Qn. change 0 with (inject_Z 0). rewrite <- Zle_Qle. lia. Qed.

Lemma Qn_neq0 n : ~ Qn (S n) == 0.
Proof. rewrite Qn_S. pose proof (Qn_nonneg n). lra. Qed.

Lemma sgn_S n : sgn (S n) == - sgn n.
Proof. unfold sgn. rewrite Nat.even_succ, <- Nat.negb_even. destruct (Nat.even n); reflexivity. Qed.

Lemma sgn_sq n : sgn n * sgn n == 1.
Proof. unfold sgn. destruct (Nat.even n); reflexivity. Qed.

Lemma eqb_no a b : a <> b -> Nat.eqb a b = false.
Proof. apply Nat.eqb_neq. Qed.

Lemma bigsum_ext f g n : (forall m, (m < n)%nat -> f m == g m) -> bigsum f n == bigsum g n.
Proof.
  induction n as [|n IH]; intros H; cbn [bigsum]; [reflexivity|].
  rewrite IH by (intros; apply H; lia). rewrite (H n) by lia. reflexivity.
Qed.

Lemma bigsum_0 n : bigsum (fun _ => 0) n == 0.
Proof. induction n as [|n IH]; cbn [bigsum]; [reflexivity|]. rewrite IH. ring. Qed.

Lemma bigsum_zero f n : (forall m, (m < n)%nat -> f m == 0) -> bigsum f n == 0.
Proof. intros H. rewrite (bigsum_ext f (fun _ => 0)) by exact H. apply bigsum_0. Qed.

Lemma bigsum_add f g n : bigsum (fun m => f m + g m) n == bigsum f n + bigsum g n.
Proof. induction n as [|n IH]; cbn [bigsum]; [ring|]. rewrite IH. ring. Qed.

Lemma bigsum_sub f g n : bigsum (fun m => f m - g m) n == bigsum f n - bigsum g n.
Proof. induction n as [|n IH]; cbn [bigsum]; [ring|]. rewrite IH. ring. Qed.

Lemma bigsum_scal a f n : bigsum (fun m => a * f m) n == a * bigsum f n.
Proof. induction n as [|n IH]; cbn [bigsum]; [ring|]. rewrite IH. ring. Qed.

Lemma bigsum_scal_r a f n : bigsum (fun m => f m * a) n == bigsum f n * a.
Proof. induction n as [|n IH]; cbn [bigsum]; [ring|]. rewrite IH. ring. Qed.

Lemma bigsum_swap (f : nat -> nat -> Q) n m :
  bigsum (fun i => bigsum (fun j => f i j) m) n == bigsum (fun j => bigsum (fun i => f i j) n) m.
Proof.
  induction n as [|n IH]; cbn [bigsum].
  - symmetry. apply bigsum_0.
  - rewrite IH. rewrite <- bigsum_add. reflexivity.
Qed.

Lemma bigsum_single f n m0 : (m0 < n)%nat -> (forall m, (m < n)%nat -> m <> m0 -> f m == 0) ->
  bigsum f n == f m0.
Proof.
  induction n as [|n IH]; intros Hm H; [lia|]. cbn [bigsum].
  destruct (Nat.eq_dec m0 n) as [->|Hne].
  - rewrite bigsum_zero; [ring|]. intros m Hmn. apply H; lia.
  - rewrite IH; [|lia|intros; apply H; lia]. rewrite (H n) by lia. ring.
Qed.

Lemma bigsum_pick2 f N a b : (a < N)%nat -> a <> b ->
  (forall m, (m < N)%nat -> m <> a -> m <> b -> f m == 0) ->
  bigsum f N == f a + (if (b <? N)%nat then f b else 0).
Proof.
  intros Ha Hab H.
  rewrite (bigsum_ext f (fun m => (if Nat.eqb m a then f a else 0) + (if Nat.eqb m b then f b else 0))).
  2:{ intros m Hm. destruct (Nat.eqb_spec m a) as [E1|E1]; destruct (Nat.eqb_spec m b) as [E2|E2]; subst;
        [lia | ring | ring | rewrite H by assumption; ring]. }
  assert (D : forall c, (c < N)%nat -> bigsum (fun m => if Nat.eqb m c then f c else 0) N == f c).
  { intros c Hc. rewrite (bigsum_single _ N c); [rewrite Nat.eqb_refl; reflexivity | exact Hc |].
    intros m _ Hne. rewrite (eqb_no m c Hne). reflexivity. }
  rewrite bigsum_add, (D a Ha). apply Qplus_comp; [reflexivity|].
  destruct (Nat.ltb_spec b N) as [E|E]; [apply D, E|].
  apply bigsum_zero. intros m Hm. rewrite eqb_no by lia. reflexivity.
Qed.

Lemma bigsum_tail f n n' : (n <= n')%nat -> (forall m, (n <= m < n')%nat -> f m == 0) ->
  bigsum f n' == bigsum f n.
Proof.
  intros Hle H. induction n' as [|n' IH].
  - replace n with 0%nat by lia. reflexivity.
  - destruct (Nat.eq_dec n (S n')) as [->|Hne]; [reflexivity|].
    cbn [bigsum]. rewrite IH; [|lia|intros; apply H; lia]. rewrite (H n') by lia. ring.
Qed.

Lemma bigsum_front f n : bigsum f (S n) == f 0%nat + bigsum (fun i => f (S i)) n.
Proof.
  induction n as [|n IH].
  - cbn [bigsum]. ring.
  - cbn [bigsum] in *. rewrite IH. ring.
Qed.

Lemma bigsum_app f a b : bigsum f (a + b) == bigsum f a + bigsum (fun i => f (a + i)%nat) b.
Proof.
  induction b as [|b IH].
  - rewrite Nat.add_0_r. cbn [bigsum]. ring.
  - rewrite Nat.add_succ_r. cbn [bigsum]. rewrite IH. ring.
Qed.

Definition shiftc (f : nat -> Q) (m : nat) : Q := match m with O => 0 | S m' => f m' end.

Lemma coef_nil n : coef [] n = 0.
Proof. unfold coef. destruct n; reflexivity. Qed.

Lemma shiftc_0 m : shiftc (coef []) m == 0.
Proof. destruct m; cbn [shiftc]; rewrite ?coef_nil; reflexivity. Qed.

Lemma shiftc_ext f g m : (forall m, f m == g m) -> shiftc f m == shiftc g m.
Proof. intros H. destruct m; cbn [shiftc]; [reflexivity | apply H]. Qed.

Lemma shiftc_lin a b f g h m : (forall m, a * f m == b * (g m - h m)) ->
  a * shiftc f m == b * (shiftc g m - shiftc h m).
Proof. intros H. destruct m; cbn [shiftc]; [ring | apply H]. Qed.

Lemma coef_beyond p m : (length p <= m)%nat -> coef p m = 0.
Proof. intros H. unfold coef. apply nth_overflow. exact H. Qed.

Lemma coef_padd p q n : coef (padd p q) n == coef p n + coef q n.
Proof.
  revert q n. induction p as [|a p IH]; intros q n.
  - cbn [padd]. rewrite coef_nil. ring.
  - destruct q as [|b q].
    + cbn [padd]. rewrite coef_nil. ring.
    + cbn [padd]. destruct n as [|n]; unfold coef; cbn [nth]; [reflexivity|]. apply IH.
Qed.

Lemma coef_pscale a p n : coef (pscale a p) n == a * coef p n.
Proof.
  revert n. induction p as [|b p IH]; intros n.
  - unfold pscale; cbn [map]. rewrite coef_nil. ring.
  - destruct n as [|n]; unfold coef, pscale; cbn [map nth]; [reflexivity|]. apply IH.
Qed.

Lemma coef_pX p n : coef (pX p) n = shiftc (coef p) n.
Proof. destruct n; reflexivity. Qed.

Lemma coef_psub p q n : coef (psub p q) n == coef p n - coef q n.
Proof. unfold psub. rewrite coef_padd, coef_pscale. ring. Qed.

Lemma coef_pderiv_from k p n : coef (pderiv_from k p) n == Qn (k + n) * coef p n.
Proof.
  revert k n. induction p as [|a p IH]; intros k n.
  - cbn [pderiv_from]. rewrite !coef_nil. ring.
  - destruct n as [|n]; unfold coef; cbn [pderiv_from nth].
    + rewrite Nat.add_0_r. reflexivity.
    + fold (coef (pderiv_from (S k) p) n). fold (coef p n). rewrite IH, Nat.add_succ_r. reflexivity.
Qed.

Lemma coef_pderiv p n : coef (pderiv p) n == Qn (S n) * coef p (S n).
Proof.
  destruct p as [|a p]; cbn [pderiv].
  - rewrite !coef_nil. ring.
  - rewrite coef_pderiv_from. reflexivity.
Qed.

Lemma coef_pint_from k p n : coef (pint_from k p) n == coef p n / Qn (k + n).
Proof.
  revert k n. induction p as [|a p IH]; intros k n.
  - cbn [pint_from]. rewrite !coef_nil. unfold Qdiv. ring.
  - destruct n as [|n]; unfold coef; cbn [pint_from nth].
    + rewrite Nat.add_0_r. reflexivity.
    + fold (coef (pint_from (S k) p) n). fold (coef p n). rewrite IH, Nat.add_succ_r. reflexivity.
Qed.

Lemma coef_pint_0 p : coef (pint p) 0 = 0.
Proof. reflexivity. Qed.

Lemma coef_pint_S p n : coef (pint p) (S n) == coef p n / Qn (S n).
Proof. exact (coef_pint_from 1 p n). Qed.

Lemma coef_pseries basis c n m :
  coef (pseries basis c n) m == bigsum (fun j => c j * coef (basis j) m) n.
Proof.
  induction n as [|n IH]; cbn [pseries bigsum].
  - rewrite coef_nil. reflexivity.
  - rewrite coef_padd, coef_pscale, IH. reflexivity.
Qed.

Global Instance peq_Equivalence : Equivalence peq.
Proof.
  split.
  - intros p n. reflexivity.
  - intros p q H n. symmetry. apply H.
  - intros p q r H1 H2 n. rewrite (H1 n). apply H2.
Qed.

Global Instance pderiv_peq : Proper (peq ==> peq) pderiv.
Proof. intros p q H n. rewrite !coef_pderiv, (H (S n)). reflexivity. Qed.

Global Instance pint_peq : Proper (peq ==> peq) pint.
Proof. intros p q H [|n]; [reflexivity|]. rewrite !coef_pint_S, (H n). reflexivity. Qed.

Global Instance pscale_peq c : Proper (peq ==> peq) (pscale c).
Proof. intros p q H m. rewrite !coef_pscale, (H m). reflexivity. Qed.

Global Instance padd_peq : Proper (peq ==> peq ==> peq) padd.
Proof. intros p p' Hp q q' Hq m. rewrite !coef_padd, (Hp m), (Hq m). reflexivity. Qed.

Lemma pderiv_padd p q : peq (pderiv (padd p q)) (padd (pderiv p) (pderiv q)).
Proof. intros n. rewrite coef_pderiv, !coef_padd, !coef_pderiv. ring. Qed.
Lemma pderiv_pscale a p : peq (pderiv (pscale a p)) (pscale a (pderiv p)).
Proof. intros n. rewrite coef_pderiv, !coef_pscale, coef_pderiv. ring. Qed.
Lemma pderiv_psub p q : peq (pderiv (psub p q)) (psub (pderiv p) (pderiv q)).
Proof. intros n. rewrite coef_pderiv, !coef_psub, !coef_pderiv. ring. Qed.

Lemma pderiv_pX p : peq (pderiv (pX p)) (padd p (pX (pderiv p))).
Proof.
  intros n. rewrite coef_pderiv, coef_padd, !coef_pX. cbn [shiftc].
  destruct n as [|n]; cbn [shiftc].
  - change (Qn 1) with 1. ring.
  - rewrite coef_pderiv. rewrite (Qn_S (S n)). ring.
Qed.

Lemma pderiv_pseries basis c n : peq (pderiv (pseries basis c n)) (pseries (fun j => pderiv (basis j)) c n).
Proof.
  intros m. rewrite coef_pderiv, !coef_pseries, <- bigsum_scal. apply bigsum_ext. intros j Hj.
  rewrite coef_pderiv. ring.
Qed.

Lemma pint_padd p q : peq (pint (padd p q)) (padd (pint p) (pint q)).
Proof.
  intros [|n]; rewrite coef_padd.
  - rewrite !coef_pint_0. ring.
  - rewrite !coef_pint_S, coef_padd. field. apply Qn_neq0.
Qed.
Lemma pint_pscale a p : peq (pint (pscale a p)) (pscale a (pint p)).
Proof.
  intros [|n]; rewrite coef_pscale.
  - rewrite !coef_pint_0. ring.
  - rewrite !coef_pint_S, coef_pscale. field. apply Qn_neq0.
Qed.

Lemma pderiv_pint p : peq (pderiv (pint p)) p.
Proof. intros n. rewrite coef_pderiv, coef_pint_S. field. apply Qn_neq0. Qed.

Lemma pint_pderiv q : peq (pint (pderiv q)) (psub q [coef q 0]).
Proof.
  intros [|n]; rewrite coef_psub.
  - rewrite coef_pint_0. unfold coef at 2. cbn [nth]. ring.
  - rewrite coef_pint_S, coef_pderiv, (coef_beyond [_] (S n)) by (cbn; lia). field. apply Qn_neq0.
Qed.

Lemma pseries_ext basis c c' N : (forall j, (j < N)%nat -> c j == c' j) -> peq (pseries basis c N) (pseries basis c' N).
Proof.
  intros H m. rewrite !coef_pseries. apply bigsum_ext. intros j Hj. rewrite (H j Hj). reflexivity.
Qed.

Lemma pseries_basis_ext b1 b2 c N : (forall j, (j < N)%nat -> peq (b1 j) (b2 j)) -> peq (pseries b1 c N) (pseries b2 c N).
Proof.
  intros H m. rewrite !coef_pseries. apply bigsum_ext. intros j Hj. rewrite (H j Hj m). reflexivity.
Qed.

Lemma pseries_scale basis s c N : peq (pseries basis (fun j => s * c j) N) (pscale s (pseries basis c N)).
Proof. intros m. rewrite coef_pscale, !coef_pseries, <- bigsum_scal. apply bigsum_ext. intros j Hj. ring. Qed.

Lemma peval_nil x : peval [] x = 0.
Proof. reflexivity. Qed.

Lemma peval_cons a p x : peval (a :: p) x = a + x * peval p x.
Proof. reflexivity. Qed.

Lemma peval_padd p q x : peval (padd p q) x == peval p x + peval q x.
Proof.
  revert q. induction p as [|a p IH]; intros q.
  - cbn [padd]. rewrite peval_nil. ring.
  - destruct q as [|b q]; cbn [padd].
    + rewrite peval_nil. ring.
    + rewrite !peval_cons, IH. ring.
Qed.

Lemma peval_pscale a p x : peval (pscale a p) x == a * peval p x.
Proof.
  induction p as [|b p IH]; unfold pscale; cbn [map].
  - rewrite peval_nil. ring.
  - rewrite !peval_cons. fold (pscale a p). rewrite IH. ring.
Qed.

Lemma peval_pX p x : peval (pX p) x == x * peval p x.
Proof. unfold pX. rewrite peval_cons. ring. Qed.

Lemma peval_psub p q x : peval (psub p q) x == peval p x - peval q x.
Proof. unfold psub. rewrite peval_padd, peval_pscale. ring. Qed.

Lemma peval_as_sum p x : peval p x == bigsum (fun j => coef p j * qpow x j) (length p).
Proof.
  induction p as [|c0 p IH]; [reflexivity|].
  rewrite peval_cons. cbn [length]. rewrite bigsum_front. unfold coef at 1. cbn [nth qpow].
  rewrite IH, <- bigsum_scal. apply Qplus_comp; [ring|]. apply bigsum_ext. intros j Hj.
  unfold coef. cbn [nth qpow]. ring.
Qed.

(* a sum weighted by the coefficients of a polynomial depends on the polynomial up to peq only: beyond its length the
   coefficients are zero, so both sums extend to the longer of the two lengths *)
Lemma bigsum_coef_peq p q (g : nat -> Q) : peq p q ->
  bigsum (fun j => coef p j * g j) (length p) == bigsum (fun j => coef q j * g j) (length q).
Proof.
  intros H. set (n := Nat.max (length p) (length q)).
  rewrite <- (bigsum_tail (fun j => coef p j * g j) (length p) n), <- (bigsum_tail (fun j => coef q j * g j) (length q) n)
    by (try (unfold n; lia); intros j Hj; rewrite coef_beyond by lia; ring).
  apply bigsum_ext. intros j _. rewrite (H j). reflexivity.
Qed.

Lemma peval_peq p q x : peq p q -> peval p x == peval q x.
Proof. intros H. rewrite !peval_as_sum. apply bigsum_coef_peq, H. Qed.

Global Instance peval_Proper : Proper (peq ==> Qeq ==> Qeq) peval.
Proof. intros p q H x y E. rewrite (peval_ext p x y E). apply peval_peq, H. Qed.

Lemma peval_pderiv_peq p q x : peq p q -> peval (pderiv p) x == peval (pderiv q) x.
Proof. intros H. rewrite H. reflexivity. Qed.

Lemma peval_pseries basis c n x :
  peval (pseries basis c n) x == bigsum (fun j => c j * peval (basis j) x) n.
Proof.
  induction n as [|n IH]; cbn [pseries bigsum].
  - reflexivity.
  - rewrite peval_padd, peval_pscale, IH. reflexivity.
Qed.

Lemma cheb_pair_SS p0 p1 n :
  fst (cheb_pair p0 p1 (S (S n))) =
  psub (pscale 2 (pX (fst (cheb_pair p0 p1 (S n))))) (fst (cheb_pair p0 p1 n)).
Proof. cbn [cheb_pair]. destruct (cheb_pair p0 p1 n) as [a b]. reflexivity. Qed.

Lemma chebT_SS n : chebT (S (S n)) = psub (pscale 2 (pX (chebT (S n)))) (chebT n).
Proof. apply cheb_pair_SS. Qed.
Lemma chebU_SS n : chebU (S (S n)) = psub (pscale 2 (pX (chebU (S n)))) (chebU n).
Proof. apply cheb_pair_SS. Qed.

Definition cT (n m : nat) : Q := coef (chebT n) m.
Definition cU (n m : nat) : Q := coef (chebU n) m.

Lemma cT_rec n m : cT (S (S n)) m == 2 * shiftc (cT (S n)) m - cT n m.
Proof. unfold cT. rewrite chebT_SS, coef_psub, coef_pscale, coef_pX. reflexivity. Qed.
Lemma cU_rec n m : cU (S (S n)) m == 2 * shiftc (cU (S n)) m - cU n m.
Proof. unfold cU. rewrite chebU_SS, coef_psub, coef_pscale, coef_pX. reflexivity. Qed.

Lemma cT_0 m : cT 0 m = match m with O => 1 | _ => 0 end.
Proof. destruct m as [|[|m]]; reflexivity. Qed.
Lemma cT_1 m : cT 1 m = shiftc (cT 0) m.
Proof. destruct m as [|[|[|m]]]; reflexivity. Qed.
Lemma cU_0 m : cU 0 m = cT 0 m.
Proof. reflexivity. Qed.
Lemma cU_1 m : cU 1 m == 2 * cT 1 m.
Proof. destruct m as [|[|[|m]]]; vm_compute; reflexivity. Qed.

Lemma nat_ind2 (P : nat -> Prop) : P 0%nat -> P 1%nat -> (forall n, P n -> P (S n) -> P (S (S n))) -> forall n, P n.
Proof. intros H0 H1 HS. apply Nat.pair_induction; [intros ? ? -> | | | ]; auto. reflexivity. Qed.

(* U_{n+2} - U_n = 2 T_{n+2} *)
Lemma U_minus_U n : forall m, cU (S (S n)) m - cU n m == 2 * cT (S (S n)) m.
Proof.
  assert (P0 : forall m, cU 2 m - cU 0 m == 2 * cT 2 m).
  { intros m. rewrite cU_rec, cT_rec, cU_0. destruct m as [|m]; cbn [shiftc]; [ring|]. rewrite (cU_1 m). ring. }
  induction n as [| |n IH0 IH1] using nat_ind2; intros m; [apply P0 | |].
  - (* U_1 = 2 T_1 = 2 x T_0 plays the part of the hypothesis one step down *)
    pose proof (cU_rec 1 m) as E1. pose proof (cT_rec 1 m) as E2. pose proof (cU_1 m) as E3. rewrite cT_1 in E2, E3.
    destruct m as [|m]; cbn [shiftc] in *; [|pose proof (P0 m); rewrite cU_0 in *]; lra.
  - (* the recurrences of U at n+4 and n+2 and of T at n+4, the hypothesis at n+1 under x and the hypothesis at n *)
    pose proof (cU_rec (S (S n)) m) as E1. pose proof (cT_rec (S (S n)) m) as E2. pose proof (cU_rec n m) as E3.
    pose proof (IH0 m). destruct m as [|m]; cbn [shiftc] in *; [|pose proof (IH1 m)]; lra.
Qed.

(* T_{n+1}' = (n+1) U_n   (coefficient m of the derivative is (m+1) * coefficient m+1) *)
Lemma T_deriv_U n : forall m, Qn (S m) * cT (S n) (S m) == Qn (S n) * cU n m.
Proof.
  (* the factors m+1, n+1 enter as rationals a, b, so that the hypotheses are used at a-1, b-1, b-2 without rewriting *)
  enough (G : forall m a b, a == Qn (S m) -> b == Qn (S n) -> a * cT (S n) (S m) == b * cU n m)
    by (intros m; apply G; reflexivity).
  induction n as [| |n IH0 IH1] using nat_ind2; intros m a b Ha Hb.
  - rewrite Ha, Hb, cT_1, cU_0. cbn [shiftc]. destruct m as [|m]; [reflexivity|]. rewrite cT_0. ring.
  - rewrite Ha, Hb, (cT_rec 0), cU_1, cT_0. cbn [shiftc]. destruct m as [|[|[|m]]]; vm_compute; reflexivity.
  - (* T_{n+3}' from the recurrence of T, U_{n+2} from that of U, U_{n+2} - U_n = 2 T_{n+2}, and the hypotheses at n (H0)
       and, under x, at n+1 (H1) *)
    rewrite (cT_rec (S n) (S m)), (cU_rec n m). cbn [shiftc].
    pose proof (Qn_S (S n)) as B1. pose proof (Qn_S (S (S n))) as B2.
    pose proof (IH0 m a (b - 2) Ha ltac:(lra)) as H0. pose proof (U_minus_U n m) as HU. pose proof (cU_rec n m) as E.
    destruct m as [|m]; cbn [shiftc] in *.
    + change (Qn 1) with 1 in Ha. rewrite Ha in H0 |- *. lra.
    + pose proof (Qn_S (S m)) as A1. pose proof (IH1 m (a - 1) (b - 1) ltac:(lra) ltac:(lra)) as H1. lra.
Qed.

Definition meq (N : nat) (A B : mat) : Prop := forall k j, (k < N)%nat -> (j < N)%nat -> A k j == B k j.

Global Instance meq_Equivalence N : Equivalence (meq N).
Proof.
  split.
  - intros A k j _ _. reflexivity.
  - intros A B H k j Hk Hj. symmetry. apply H; assumption.
  - intros A B C H1 H2 k j Hk Hj. rewrite (H1 k j Hk Hj). apply H2; assumption.
Qed.

Lemma mmul_ext N A A' B B' k j :
  (forall m, (m < N)%nat -> A k m == A' k m) -> (forall m, (m < N)%nat -> B m j == B' m j) ->
  mmul N A B k j == mmul N A' B' k j.
Proof. intros HA HB. apply bigsum_ext. intros m Hm. rewrite (HA m Hm), (HB m Hm). reflexivity. Qed.

Global Instance mmul_meq N : Proper (meq N ==> meq N ==> meq N) (mmul N).
Proof. intros A A' HA B B' HB k j Hk Hj. apply mmul_ext; intros m Hm; [apply HA | apply HB]; assumption. Qed.

Lemma mmul_assoc_at N A B C k j : mmul N (mmul N A B) C k j == mmul N A (mmul N B C) k j.
Proof.
  unfold mmul.
  rewrite (bigsum_ext _ (fun m => bigsum (fun i => A k i * B i m * C m j) N))
    by (intros m Hm; rewrite <- bigsum_scal_r; reflexivity).
  rewrite bigsum_swap. apply bigsum_ext. intros i Hi.
  rewrite <- bigsum_scal. apply bigsum_ext. intros m Hm. ring.
Qed.

Lemma mmul_assoc N A B C : meq N (mmul N (mmul N A B) C) (mmul N A (mmul N B C)).
Proof. intros k j _ _. apply mmul_assoc_at. Qed.

Lemma bigsum_mI f N k : (k < N)%nat -> bigsum (fun m => mI k m * f m) N == f k.
Proof.
  intros Hk. unfold mI. rewrite (bigsum_single _ N k); [rewrite Nat.eqb_refl; ring | exact Hk |].
  intros m _ Hne. rewrite eqb_no by lia. ring.
Qed.

Lemma mmul_I_l N A : meq N (mmul N mI A) A.
Proof. intros k j Hk _. exact (bigsum_mI (fun m => A m j) N k Hk). Qed.

Lemma mmul_I_r_at N A k j : (j < N)%nat -> mmul N A mI k j == A k j.
Proof.
  intros Hj. rewrite <- (bigsum_mI (A k) N j Hj). apply bigsum_ext. intros m _.
  unfold mI. rewrite Nat.eqb_sym. ring.
Qed.

Lemma mmul_I_r N A : meq N (mmul N A mI) A.
Proof. intros k j _. apply mmul_I_r_at. Qed.

Lemma mpow_comm N A p : meq N (mmul N A (mpow N A p)) (mmul N (mpow N A p) A).
Proof.
  induction p as [|p IH]; cbn [mpow].
  - rewrite mmul_I_r, mmul_I_l. reflexivity.
  - rewrite mmul_assoc, IH. reflexivity.
Qed.

Lemma mv_mmul N A B c k : mv N (mmul N A B) c k == mv N A (mv N B c) k.
Proof.
  unfold mv, mmul.
  rewrite (bigsum_ext _ (fun j => bigsum (fun m => A k m * B m j * c j) N))
    by (intros j Hj; rewrite <- bigsum_scal_r; reflexivity).
  rewrite bigsum_swap. apply bigsum_ext. intros m Hm.
  rewrite <- bigsum_scal. apply bigsum_ext. intros j Hj. ring.
Qed.

Lemma mv_I N c k : (k < N)%nat -> mv N mI c k == c k.
Proof. apply bigsum_mI. Qed.

Lemma mv_ext N A B c c' k : (k < N)%nat -> meq N A B -> (forall j, (j < N)%nat -> c j == c' j) ->
  mv N A c k == mv N B c' k.
Proof. intros Hk HA Hc. apply bigsum_ext. intros j Hj. rewrite (HA k j Hk Hj), (Hc j Hj). reflexivity. Qed.

(* row k of a product whose left factor is supported on the diagonal and the second upper diagonal *)
Lemma mmul_bidiag N (M X : mat) k j : (k < N)%nat ->
  (forall m, m <> k -> m <> S (S k) -> M k m == 0) ->
  ((N <= k + 2)%nat -> X (S (S k)) j == 0) ->
  mmul N M X k j == M k k * X k j + M k (S (S k)) * X (S (S k)) j.
Proof.
  intros Hk HS HX. unfold mmul.
  rewrite (bigsum_pick2 _ N k (S (S k))) by (try lia; intros m Hm H1 H2; rewrite HS by assumption; ring).
  destruct (Nat.ltb_spec (S (S k)) N) as [E|E]; [reflexivity|]. rewrite HX by lia. ring.
Qed.

(* column j of a product whose right factor is supported there *)
Lemma mmul_bidiag_col N (X M : mat) k j : (j < N)%nat ->
  (forall m, m <> j -> S (S m) <> j -> M m j == 0) ->
  mmul N X M k j == X k j * M j j + match j with S (S i) => X k i * M i j | _ => 0 end.
Proof.
  intros Hj HS. unfold mmul.
  assert (Z : forall m, m <> j -> S (S m) <> j -> X k m * M m j == 0) by (intros; rewrite HS by assumption; ring).
  destruct j as [|[|i]].
  - rewrite (bigsum_single _ N 0%nat) by (try lia; intros; apply Z; lia). ring.
  - rewrite (bigsum_single _ N 1%nat) by (try lia; intros; apply Z; lia). ring.
  - rewrite (bigsum_pick2 _ N (S (S i)) i) by (try lia; intros; apply Z; lia).
    destruct (Nat.ltb_spec i N); [reflexivity | lia].
Qed.

(* a basis as the matrix of its coefficients: column j holds b_j *)
Definition cmat (b : nat -> list Q) : mat := fun m j => coef (b j) m.

(* a matrix whose columns hold the expansion of basis1_j in basis2 converts series *)
Lemma series_convert (b1 b2 : nat -> list Q) (M : mat) N :
  (forall m j, (j < N)%nat -> cmat b1 m j == mmul N (cmat b2) M m j) ->
  forall c, peq (pseries b1 c N) (pseries b2 (mv N M c) N).
Proof.
  intros H c m. rewrite !coef_pseries.
  rewrite (bigsum_ext _ (fun j => bigsum (fun k => c j * (cmat b2 m k * M k j)) N)).
  2:{ intros j Hj. fold (cmat b1 m j). rewrite (H m j Hj). unfold mmul. rewrite <- bigsum_scal. reflexivity. }
  rewrite bigsum_swap. apply bigsum_ext. intros k Hk. unfold mv.
  rewrite <- bigsum_scal_r. apply bigsum_ext. intros j Hj. unfold cmat. ring.
Qed.

(* T2D k j = 1 for k <= j of equal parity, else 0.  U2T, USinv lam and the columns of DT are row / column scalings
   of it (U2T_T2D, USinv_T2D, DT_U2T), so their telescoping row and column differences all come from the two steps below. *)
Lemma T2D_row_step k j : T2D k j - T2D (S (S k)) j == if Nat.eqb k j then 1 else 0.
Proof.
  unfold T2D. destruct (Nat.eqb_spec k j) as [<-|E].
  - rewrite Nat.leb_refl, Nat.sub_diag, (proj2 (Nat.leb_gt (S (S k)) k)) by lia. reflexivity.
  - destruct (Nat.leb_spec (S (S k)) j) as [H|H].
    + rewrite (proj2 (Nat.leb_le k j)) by lia. replace (j - k)%nat with (S (S (j - S (S k)))) by lia.
      cbn [Nat.even andb]. ring.
    + cbn [andb]. destruct (Nat.leb_spec k j) as [H'|H']; cbn [andb]; [|ring].
      replace (j - k)%nat with 1%nat by lia. reflexivity.
Qed.

(* the same step between columns: T2D is constant along diagonals, T2D (S k) (S j) is convertible to T2D k j *)
Lemma T2D_col_step k n : T2D k (S (S n)) == T2D k n + (if Nat.eqb k (S (S n)) then 1 else 0).
Proof. rewrite <- T2D_row_step. change (T2D (S (S k)) (S (S n))) with (T2D k n). ring. Qed.

Lemma T2D_below k j : (j < k)%nat -> T2D k j = 0.
Proof. intros H. unfold T2D. rewrite (proj2 (Nat.leb_gt k j)) by lia. reflexivity. Qed.

Lemma U2T_T2D k j : U2T k j == (if Nat.eqb k 0 then 1 else 2) * T2D k j.
Proof. unfold U2T, T2D. destruct ((k <=? j)%nat && Nat.even (j - k)); destruct (Nat.eqb k 0); ring. Qed.

Lemma USinv_T2D l k j : USinv (S l) k j == Qn (S l + k) / Qn (S l) * T2D k j.
Proof. unfold USinv, T2D. destruct ((k <=? j)%nat && Nat.even (j - k)); unfold Qdiv; ring. Qed.

Lemma DT_U2T k j : DT k (S j) == Qn (S j) * U2T k j.
Proof.
  unfold DT, U2T. change (k <? S j)%nat with (k <=? j)%nat.
  destruct (Nat.leb_spec k j); cbn [andb]; [|ring].
  rewrite Nat.sub_succ_l, Nat.odd_succ by lia. destruct (Nat.even (j - k)); destruct (Nat.eqb k 0%nat); ring.
Qed.

Lemma DT_zero_below m j : (j <= m)%nat -> DT m j == 0.
Proof. intros H. unfold DT. rewrite (proj2 (Nat.ltb_ge m j)) by lia. reflexivity. Qed.

Lemma DT_row_step m j : (1 <= m)%nat ->
  DT m j - DT (S (S m)) j == if Nat.eqb j (S m) then 2 * Qn j else 0.
Proof.
  intros Hm. destruct j as [|i].
  - rewrite !DT_zero_below by lia. reflexivity.
  - rewrite !DT_U2T, !U2T_T2D, (eqb_no m 0) by lia.
    transitivity (2 * Qn (S i) * (T2D m i - T2D (S (S m)) i)); [cbn [Nat.eqb]; ring|]. rewrite T2D_row_step.
    cbn [Nat.eqb]. rewrite (Nat.eqb_sym i m). destruct (Nat.eqb m i); ring.
Qed.

Lemma US_support lam k m : m <> k -> m <> S (S k) -> US lam k m == 0.
Proof. intros H1 H2. destruct lam; cbn [US]; unfold T2U; rewrite !eqb_no by lia; reflexivity. Qed.

Lemma US_diag lam k : US lam k k = match lam with O => if Nat.eqb k 0 then 1 else 1 # 2 | _ => Qn lam / Qn (lam + k) end.
Proof. destruct lam; cbn [US]; unfold T2U; rewrite Nat.eqb_refl; reflexivity. Qed.

Lemma US_super lam k :
  US lam k (S (S k)) = match lam with O => - (1 # 2) | _ => - (Qn lam / Qn (lam + S (S k))) end.
Proof.
  destruct lam; cbn [US]; unfold T2U; rewrite (eqb_no k (S (S k))), Nat.add_comm by lia; cbn [Nat.add];
    rewrite Nat.eqb_refl; reflexivity.
Qed.

Theorem US_USinv N lam : meq N (mmul N (US lam) (USinv lam)) mI.
Proof.
  intros k j Hk Hj.
  rewrite mmul_bidiag, US_diag, US_super; [| exact Hk | intros; apply US_support; assumption |].
  - transitivity (T2D k j - T2D (S (S k)) j); [|apply T2D_row_step].
    destruct lam as [|l]; cbv iota.
    + change (USinv 0) with U2T. rewrite !U2T_T2D. cbn [Nat.eqb]. destruct (Nat.eqb k 0); ring.
    + rewrite !USinv_T2D. field. repeat split; apply Qn_neq0.
  - intros HN. destruct lam; [change (USinv 0) with U2T; rewrite U2T_T2D | rewrite USinv_T2D];
      rewrite T2D_below by lia; ring.
Qed.

Lemma T2U_sem N m j : (j < N)%nat -> cmat chebT m j == mmul N (cmat chebU) T2U m j.
Proof.
  intros Hj. rewrite mmul_bidiag_col by (try lia; intros; apply (US_support 0); lia).
  unfold cmat. fold (cT j m) (cU j m).
  destruct j as [|[|i]]; [rewrite cU_0 | rewrite cU_1 | ]; rewrite ?(US_diag 0), ?(US_super 0); cbn [Nat.eqb]; [ring..|].
  fold (cU i m). pose proof (U_minus_U i m). lra.
Qed.

Theorem T2U_correct N c : peq (pseries chebT c N) (pseries chebU (mv N T2U c) N).
Proof. apply series_convert. intros m j. apply T2U_sem. Qed.

(* U2T converts back because it inverts T2U *)
Lemma U2T_sem N m j : (j < N)%nat -> cmat chebU m j == mmul N (cmat chebT) U2T m j.
Proof.
  intros Hj.
  rewrite (mmul_ext N _ (mmul N (cmat chebU) T2U) _ U2T m j), mmul_assoc_at;
    [| intros k Hk; apply T2U_sem, Hk | reflexivity].
  rewrite (mmul_ext N _ (cmat chebU) _ mI m j), mmul_I_r_at;
    [reflexivity | exact Hj | reflexivity | intros k Hk; apply (US_USinv N 0); assumption].
Qed.

Theorem U2T_correct N c : peq (pseries chebU c N) (pseries chebT (mv N U2T c) N).
Proof. apply series_convert. intros m j. apply U2T_sem. Qed.

Theorem U2T_inverse N k j : (k < N)%nat -> (j < N)%nat ->
  mmul N U2T T2U k j == mI k j /\ mmul N T2U U2T k j == mI k j.
Proof.
  intros Hk Hj. split; [|exact (US_USinv N 0 k j Hk Hj)].
  rewrite mmul_bidiag_col by (try lia; intros; apply (US_support 0); lia).
  rewrite (US_diag 0). destruct j as [|[|i]]; rewrite ?(US_super 0), ?U2T_T2D, ?T2D_col_step; unfold mI.
  - destruct k; reflexivity.
  - destruct k as [|[|k]]; reflexivity.
  - cbn [Nat.eqb]. destruct (Nat.eqb_spec k (S (S i))) as [->|]; [cbn [Nat.eqb] | destruct (Nat.eqb k 0)]; ring.
Qed.

(* column j of D holds the T-coefficients of T_j' *)
Lemma DT_sem N m j : (j < N)%nat -> cmat (fun j => pderiv (chebT j)) m j == mmul N (cmat chebT) DT m j.
Proof.
  intros Hj. unfold cmat at 1. rewrite coef_pderiv. fold (cT j (S m)). destruct j as [|i].
  - rewrite cT_0. unfold mmul. rewrite bigsum_zero; [ring|]. intros k _. rewrite DT_zero_below by lia. ring.
  - rewrite T_deriv_U. change (cU i m) with (cmat chebU m i). rewrite (U2T_sem N) by lia. unfold mmul.
    rewrite <- bigsum_scal. apply bigsum_ext. intros k _. rewrite DT_U2T. ring.
Qed.

Theorem cheb_diff_correct N c : peq (pderiv (pseries chebT c N)) (pseries chebT (mv N DT c) N).
Proof. rewrite pderiv_pseries. apply series_convert. intros m j. apply DT_sem. Qed.

Fixpoint pderiv_n (p : nat) (q : list Q) : list Q := match p with O => q | S p' => pderiv (pderiv_n p' q) end.

Lemma pderiv_n_peq p q1 q2 : peq q1 q2 -> peq (pderiv_n p q1) (pderiv_n p q2).
Proof. intros H. induction p as [|p IH]; cbn [pderiv_n]; [exact H | rewrite IH; reflexivity]. Qed.

Theorem cheb_diff_p_correct N c p :
  peq (pderiv_n p (pseries chebT c N)) (pseries chebT (mv N (mpow N DT p) c) N).
Proof.
  induction p as [|p IH]; cbn [pderiv_n mpow].
  - apply pseries_ext. intros j Hj. symmetry. apply mv_I, Hj.
  - rewrite IH, cheb_diff_correct. apply pseries_ext. intros j Hj. symmetry. apply mv_mmul.
Qed.

Definition vT (n : nat) (x : Q) : Q := peval (chebT n) x.
Definition vdT (n : nat) (x : Q) : Q := peval (pderiv (chebT n)) x.

Lemma vT_rec n x : vT (S (S n)) x == 2 * x * vT (S n) x - vT n x.
Proof. unfold vT. rewrite chebT_SS, peval_psub, peval_pscale, peval_pX. ring. Qed.

Lemma vdT_rec n x : vdT (S (S n)) x == 2 * vT (S n) x + 2 * x * vdT (S n) x - vdT n x.
Proof.
  unfold vdT, vT. rewrite chebT_SS, pderiv_psub, peval_psub, pderiv_pscale, peval_pscale, pderiv_pX, peval_padd, peval_pX.
  ring.
Qed.

Lemma div2_SS n : (S (S n) / 2 = S (n / 2))%nat.
Proof. change (S (S n)) with (1 * 2 + n)%nat. rewrite Nat.div_add_l by lia. reflexivity. Qed.

(* T_n(1) = 1, T_n(-1) = (-1)^n, T_n(0) = 0 / (-1)^(n/2) *)
Lemma dir_row_value b n : vT n (bpt_Q b) == dir_row b n.
Proof.
  induction n as [| |n IH0 IH1] using nat_ind2; [destruct b; reflexivity ..|].
  rewrite vT_rec, IH0, IH1. destruct b; cbn [bpt_Q dir_row].
  - change (sgn (S (S n))) with (sgn n). rewrite sgn_S. ring.
  - rewrite Nat.even_succ_succ, div2_SS. destruct (Nat.even n); [rewrite sgn_S|]; ring.
  - ring.
Qed.

Theorem dirichlet_row_is_evaluation N c b :
  peval (pseries chebT c N) (bpt_Q b) == bigsum (fun j => dir_row b j * c j) N.
Proof.
  rewrite peval_pseries. apply bigsum_ext. intros j Hj.
  fold (vT j (bpt_Q b)). rewrite dir_row_value. ring.
Qed.

Lemma neu_row_value b n : b <> B0 -> vdT n (bpt_Q b) == neu_row b n.
Proof.
  intros Hb. induction n as [| |n IH0 IH1] using nat_ind2; [destruct b; reflexivity ..|].
  rewrite vdT_rec, IH0, IH1, dir_row_value. destruct b; [| congruence |]; cbn [bpt_Q dir_row neu_row].
  - destruct n as [|n]; [reflexivity|]. change (sgn (S (S n))) with (sgn n). rewrite sgn_S, !Qn_S. ring.
  - rewrite !Qn_S. ring.
Qed.

Theorem neumann_row_is_derivative N c b : b <> B0 ->
  peval (pderiv (pseries chebT c N)) (bpt_Q b) == bigsum (fun j => neu_row b j * c j) N.
Proof.
  intros Hb. rewrite pderiv_pseries, peval_pseries. apply bigsum_ext. intros j Hj.
  fold (vdT j (bpt_Q b)). rewrite neu_row_value by exact Hb. ring.
Qed.

Definition pdefint (p : list Q) (a b : Q) : Q := peval (pint p) b - peval (pint p) a.

Global Instance pdefint_Proper : Proper (peq ==> eq ==> eq ==> Qeq) pdefint.
Proof. intros p q H a _ <- b _ <-. unfold pdefint. rewrite H. reflexivity. Qed.

Lemma pdefint_pseries basis c n a b :
  pdefint (pseries basis c n) a b == bigsum (fun j => c j * pdefint (basis j) a b) n.
Proof.
  unfold pdefint. induction n as [|n IH]; cbn [pseries bigsum].
  - change (pint []) with [0]. rewrite !peval_cons, !peval_nil. ring.
  - rewrite pint_padd, !peval_padd, pint_pscale, !peval_pscale, <- IH. ring.
Qed.

Lemma pdefint_pderiv q a b : pdefint (pderiv q) a b == peval q b - peval q a.
Proof. unfold pdefint. rewrite pint_pderiv, !peval_psub, !peval_cons, !peval_nil. ring. Qed.

Lemma Qn_13_neq0 n : ~ (Qn n + 1) * (Qn n + 3) == 0.
Proof. pose proof (Qn_nonneg n). intro E. apply Qmult_integral in E. destruct E; lra. Qed.

(* antiderivative of T_{n+2}:  T_{n+2} = ( T_{n+3}/(n+3) - T_{n+1}/(n+1) )' / 2 *)
Definition antiT (n : nat) : list Q :=
  pscale (1 # 2) (psub (pscale (/ Qn (S (S (S n)))) (chebT (S (S (S n))))) (pscale (/ Qn (S n)) (chebT (S n)))).

Lemma antiT_deriv n : peq (pderiv (antiT n)) (chebT (S (S n))).
Proof.
  intros m. unfold antiT. rewrite coef_pderiv, coef_pscale, coef_psub, !coef_pscale.
  fold (cT (S (S (S n))) (S m)) (cT (S n) (S m)) (cT (S (S n)) m).
  transitivity ((1 # 2) * (/ Qn (S (S (S n))) * (Qn (S m) * cT (S (S (S n))) (S m)) - / Qn (S n) * (Qn (S m) * cT (S n) (S m))));
    [ring|]. rewrite !T_deriv_U.
  transitivity ((1 # 2) * (cU (S (S n)) m - cU n m)); [field; split; apply Qn_neq0 | rewrite U_minus_U; ring].
Qed.

Lemma integ_row_value n : pdefint (chebT n) (-(1)) 1 == integ_row n.
Proof.
  destruct n as [|[|n]]; [reflexivity ..|].
  rewrite <- (antiT_deriv n), pdefint_pderiv.
  unfold antiT. rewrite !peval_pscale, !peval_psub, !peval_pscale.
  fold (vT (S (S (S n))) 1) (vT (S n) 1) (vT (S (S (S n))) (-(1))) (vT (S n) (-(1))).
  rewrite (dir_row_value Bp1 (S (S (S n)))), (dir_row_value Bp1 (S n)).
  rewrite (dir_row_value Bm1 (S (S (S n)))), (dir_row_value Bm1 (S n)).
  cbn [dir_row integ_row]. change (sgn (S (S (S n)))) with (sgn (S n)). change (sgn (S (S n))) with (sgn n).
  rewrite sgn_S, !Qn_S.
  pose proof (Qn_nonneg n). pose proof (Qn_13_neq0 n). field. repeat split; lra.
Qed.

Theorem integ_row_is_integral N c :
  pdefint (pseries chebT c N) (-(1)) 1 == bigsum (fun j => integ_row j * c j) N.
Proof.
  rewrite pdefint_pseries. apply bigsum_ext. intros j Hj. rewrite integ_row_value. ring.
Qed.

Lemma flat_divmod i j n : (j < n)%nat -> ((i * n + j) / n = i /\ (i * n + j) mod n = j)%nat.
Proof.
  intros H. split.
  - rewrite Nat.div_add_l, (Nat.div_small j n) by lia. lia.
  - rewrite Nat.add_comm, Nat.mod_add, Nat.mod_small by lia. reflexivity.
Qed.

Lemma bigsum_prod (f : nat -> nat -> Q) n1 n2 :
  bigsum (fun r => f (r / n2)%nat (r mod n2)%nat) (n1 * n2) == bigsum (fun i => bigsum (fun j => f i j) n2) n1.
Proof.
  induction n1 as [|n1 IH]; [reflexivity|].
  replace (S n1 * n2)%nat with (n1 * n2 + n2)%nat by lia.
  rewrite bigsum_app, IH. cbn [bigsum]. apply Qplus_comp; [reflexivity|].
  apply bigsum_ext. intros j Hj. destruct (flat_divmod n1 j n2 Hj) as [-> ->]. reflexivity.
Qed.

(* kron(A, B) applied to a flattened n1 x n2 array X is  sum_{j1, j2} A[i1, j1] B[i2, j2] X[j1, j2] *)
Theorem kron_is_tensor n1 n2 (A B : mat) (X : nat -> nat -> Q) i1 i2 :
  (i2 < n2)%nat ->
  mv (n1 * n2) (kron n2 A B) (fun r => X (r / n2)%nat (r mod n2)%nat) (i1 * n2 + i2)
  == bigsum (fun j1 => bigsum (fun j2 => A i1 j1 * B i2 j2 * X j1 j2) n2) n1.
Proof.
  intros H2. unfold mv, kron. destruct (flat_divmod i1 i2 n2 H2) as [-> ->].
  exact (bigsum_prod (fun j1 j2 => A i1 j1 * B i2 j2 * X j1 j2) n1 n2).
Qed.

(* expand_matrix_ND: kron(M, I) applies M along the first axis, kron(I, M) along the second *)
Corollary kron_left_identity n1 n2 (A : mat) X i1 i2 : (i2 < n2)%nat ->
  mv (n1 * n2) (kron n2 A mI) (fun r => X (r / n2)%nat (r mod n2)%nat) (i1 * n2 + i2)
  == bigsum (fun j1 => A i1 j1 * X j1 i2) n1.
Proof.
  intros H2. rewrite kron_is_tensor by exact H2. apply bigsum_ext. intros j1 H1.
  rewrite <- (bigsum_mI (fun j2 => A i1 j1 * X j1 j2) n2 i2 H2). apply bigsum_ext. intros j2 _. ring.
Qed.

Corollary kron_right_identity n1 n2 (B : mat) X i1 i2 : (i1 < n1)%nat -> (i2 < n2)%nat ->
  mv (n1 * n2) (kron n2 mI B) (fun r => X (r / n2)%nat (r mod n2)%nat) (i1 * n2 + i2)
  == bigsum (fun j2 => B i2 j2 * X i1 j2) n2.
Proof.
  intros H1 H2. rewrite kron_is_tensor by exact H2.
  rewrite <- (bigsum_mI (fun j1 => bigsum (fun j2 => B i2 j2 * X j1 j2) n2) n1 i1 H1).
  apply bigsum_ext. intros j1 _. rewrite <- bigsum_scal. apply bigsum_ext. intros j2 _. ring.
Qed.

Definition ccU (p : nat) : Q := Qpown 2 (p - 1) * factQ (p - 1).

Lemma ccU_S p : ccU (S (S p)) == 2 * Qn (S p) * ccU (S p).
Proof. unfold ccU. cbn [Nat.sub]. rewrite Nat.sub_0_r. cbn [Qpown factQ]. ring. Qed.

Lemma Qpown_1 p : Qpown 1 p == 1.
Proof. induction p as [|p IH]; cbn [Qpown]; [reflexivity|]. rewrite IH. ring. Qed.

Lemma UD_entry p k j : UD 1 p k j == if Nat.eqb (k + p) j then ccU p * Qn j else 0.
Proof.
  unfold UD, ccU. destruct (Nat.eqb (k + p) j); [|reflexivity]. rewrite Qpown_1. field.
Qed.

Lemma UD_DT N p m j : (j < N)%nat -> mmul N (UD 1 p) DT m j == ccU p * Qn (m + p) * DT (m + p)%nat j.
Proof.
  intros Hj. unfold mmul.
  assert (Z : forall i, i <> (m + p)%nat -> UD 1 p m i * DT i j == 0).
  { intros i Hi. rewrite UD_entry, eqb_no by lia. ring. }
  destruct (Nat.ltb_spec (m + p) N) as [E|E].
  - rewrite (bigsum_single _ N (m + p)%nat) by (try lia; intros; apply Z; lia).
    rewrite UD_entry, Nat.eqb_refl. ring.
  - rewrite (DT_zero_below (m + p) j), bigsum_zero by (try lia; intros; apply Z; lia). ring.
Qed.

Definition UE (p : nat) : mat := match p with O => mI | _ => UD 1 p end.

Lemma ultra_step N p : meq N (mmul N (US p) (mmul N (UE p) DT)) (UE (S p)).
Proof.
  destruct p as [|p]; cbn [UE]; [rewrite mmul_I_l|]; intros k j Hk Hj;
    (rewrite mmul_bidiag, US_diag, US_super, UD_entry; [| exact Hk | intros; apply US_support; assumption |]).
  - (* T2U * D = D_1 *)
    destruct j as [|i]; [rewrite !DT_zero_below, (eqb_no (k + 1) 0) by lia; ring|].
    rewrite !DT_U2T, !U2T_T2D, Nat.add_1_r. cbn [Nat.eqb].
    transitivity (Qn (S i) * (T2D k i - T2D (S (S k)) i)); [destruct (Nat.eqb k 0); ring|].
    rewrite T2D_row_step. destruct (Nat.eqb k i); [unfold ccU; cbn|]; ring.
  - intros HN. apply DT_zero_below. lia.
  - rewrite !UD_DT by exact Hj. rewrite (Nat.add_comm (S p)), (Nat.add_comm (S p)). cbn [Nat.add].
    transitivity (Qn (S p) * ccU (S p) * (DT (k + S p)%nat j - DT (S (S (k + S p))) j)).
    { rewrite !Nat.add_succ_r. field. split; apply Qn_neq0. }
    rewrite DT_row_step, (Nat.add_succ_r k (S p)), Nat.eqb_sym by lia.
    destruct (Nat.eqb (S (k + S p)) j); [rewrite ccU_S|]; ring.
  - intros HN. rewrite UD_DT, DT_zero_below by lia. ring.
Qed.

Lemma ultra_matches_dense_E N p : meq N (mmul N (Ubc N 0 p) (mpow N DT p)) (UE p).
Proof.
  induction p as [|p IH]; cbn [Ubc mpow Nat.add].
  - apply mmul_I_l.
  - (* (S_p Ubc_p) (D D^p) = S_p ((Ubc_p D^p) D) *)
    rewrite mpow_comm, mmul_assoc, <- (mmul_assoc N (Ubc N 0 p)), IH. apply ultra_step.
Qed.

Theorem ultra_matches_dense N p : (1 <= p)%nat -> meq N (mmul N (Ubc N 0 p) (mpow N DT p)) (UD 1 p).
Proof. intros Hp. destruct p as [|p]; [lia|]. apply (ultra_matches_dense_E N (S p)). Qed.

Lemma Ubc_bottom N d : forall lo, meq N (Ubc N lo (S d)) (mmul N (Ubc N (S lo) d) (US lo)).
Proof.
  induction d as [|d IH]; intros lo.
  - cbn [Ubc]. rewrite Nat.add_0_r, mmul_I_r, mmul_I_l. reflexivity.
  - change (Ubc N lo (S (S d))) with (mmul N (US (lo + S d)) (Ubc N lo (S d))).
    rewrite IH, <- mmul_assoc, Nat.add_succ_r. reflexivity.
Qed.

(* D * S = I on the columns j < N - 1 (polynomials of degree < N - 1), every N and every fac:
   below row 0, S is T2U with row i+1 divided by i+1, and column i+1 of D is (i+1) times column i of U2T.
   Row 0 of S, the only place where fac enters and the only formula of S that is not T2U, meets column 0 of D, which is zero:
   the statement says nothing about it. *)
Lemma DT_ST_inverse N fac k j : (k < N)%nat -> (j + 1 < N)%nat -> mmul N DT (ST fac) k j == mI k j.
Proof.
  intros Hk Hj. destruct N as [|n]; [lia|].
  rewrite <- (proj1 (U2T_inverse (S n) k j Hk ltac:(lia))). unfold mmul. rewrite bigsum_front. cbn [bigsum].
  change T2U with (US 0). rewrite (US_support 0 n j), DT_zero_below by lia.
  transitivity (bigsum (fun i => U2T k i * US 0 i j) n); [|ring]. rewrite Qmult_0_l, Qplus_0_l.
  apply bigsum_ext. intros i _. rewrite DT_U2T. cbn [ST US]. field. apply Qn_neq0.
Qed.

Theorem cheb_int_is_right_inverse N k j : (k < N)%nat -> (j + 1 < N)%nat -> mmul N DT (ST 1) k j == mI k j.
Proof. apply DT_ST_inverse. Qed.

Theorem cheb_int_then_diff N c : (1 <= N)%nat -> c (N - 1)%nat == 0 ->
  peq (pderiv (pseries chebT (mv N (ST 1) c) N)) (pseries chebT c N).
Proof.
  intros HN Hc. rewrite cheb_diff_correct.
  apply pseries_ext. intros k Hk. rewrite <- mv_mmul, <- (mv_I N c k Hk).
  apply bigsum_ext. intros j Hj. destruct (Nat.eq_dec j (N - 1)) as [->|Hne].
  - rewrite Hc. ring.
  - rewrite cheb_int_is_right_inverse by lia. reflexivity.
Qed.

Lemma Qnum0 q : (Qnum q =? 0)%Z = true -> q == 0.
Proof. intros H. apply Z.eqb_eq in H. unfold Qeq. cbn. rewrite H. reflexivity. Qed.

Lemma qadd_fast_eq a b : qadd_fast a b == a + b.
Proof.
  unfold qadd_fast. destruct (Qnum b =? 0)%Z eqn:Eb; [rewrite (Qnum0 b Eb); ring|].
  destruct (Qnum a =? 0)%Z eqn:Ea; [rewrite (Qnum0 a Ea); ring | apply Qred_correct].
Qed.

Lemma vaxpy_length a x y : length (vaxpy a x y) = length y.
Proof.
  revert y. induction x as [|xi x IH]; intros [|yi y]; cbn [vaxpy length]; try reflexivity.
  rewrite IH. reflexivity.
Qed.

Lemma vaxpy_nth a x y j : length x = length y -> nth j (vaxpy a x y) 0 == nth j y 0 + a * nth j x 0.
Proof.
  revert y j. induction x as [|xi x IH]; intros [|yi y] j Hl; cbn [length] in Hl; try discriminate.
  - cbn [vaxpy]. destruct j; cbn [nth]; ring.
  - cbn [vaxpy]. destruct j as [|j]; cbn [nth]; [|apply IH; lia].
    destruct (Qnum xi =? 0)%Z eqn:E; [rewrite (Qnum0 xi E); ring | apply qadd_fast_eq].
Qed.

Definition lstep (arow : nat -> Q) (acc : list Q) (mb : nat * list Q) : list Q :=
  let a := arow (fst mb) in if (Qnum a =? 0)%Z then acc else vaxpy a (snd mb) acc.

Lemma lstep_length arow acc mb : length (lstep arow acc mb) = length acc.
Proof. unfold lstep. destruct (Qnum (arow (fst mb)) =? 0)%Z; [reflexivity | apply vaxpy_length]. Qed.

Lemma lstep_nth arow acc mb j : length (snd mb) = length acc ->
  nth j (lstep arow acc mb) 0 == nth j acc 0 + arow (fst mb) * nth j (snd mb) 0.
Proof.
  intros Hl. unfold lstep. destruct (Qnum (arow (fst mb)) =? 0)%Z eqn:E.
  - rewrite (Qnum0 _ E). ring.
  - apply vaxpy_nth. exact Hl.
Qed.

Lemma fold_lstep arow j : forall n s (B : list (list Q)) acc,
  length B = n -> (forall b, In b B -> length b = length acc) ->
  length (fold_left (lstep arow) (combine (seq s n) B) acc) = length acc /\
  nth j (fold_left (lstep arow) (combine (seq s n) B) acc) 0
  == nth j acc 0 + bigsum (fun i => arow (s + i)%nat * nth j (nth i B []) 0) n.
Proof.
  induction n as [|n IH]; intros s B acc HB HL.
  - cbn. split; [reflexivity | ring].
  - destruct B as [|b B]; [discriminate|]. cbn [seq combine fold_left].
    destruct (IH (S s) B (lstep arow acc (s, b))) as [IL IN];
      [cbn in HB; lia | intros b' Hb'; rewrite lstep_length; apply HL; right; exact Hb' |].
    split; [rewrite IL; apply lstep_length|].
    rewrite IN, lstep_nth, bigsum_front, Nat.add_0_r by (apply HL; left; reflexivity). cbn [fst snd nth].
    rewrite <- Qplus_assoc. repeat (apply Qplus_comp; [reflexivity|]).
    apply bigsum_ext. intros i _. rewrite Nat.add_succ_r. reflexivity.
Qed.

Definition is_tab (N : nat) (t : list (list Q)) (M : mat) : Prop :=
  (length t = N /\ forall r, In r t -> length r = N) /\ meq N (tget t) M.

Lemma is_tab_map N (f : nat -> list Q) M : (forall k, length (f k) = N) ->
  (forall k j, (k < N)%nat -> (j < N)%nat -> nth j (f k) 0 == M k j) -> is_tab N (map f (seq 0 N)) M.
Proof.
  intros Hlen Hnth. split; [split|].
  - rewrite map_length, seq_length. reflexivity.
  - intros r Hin. apply in_map_iff in Hin. destruct Hin as [k [<- _]]. apply Hlen.
  - intros k j Hk Hj. unfold tget.
    rewrite (nth_indep _ [] (f 0%nat)), map_nth, seq_nth by (rewrite ?map_length, ?seq_length; exact Hk).
    apply Hnth; assumption.
Qed.

Lemma is_tab_tab N M : is_tab N (tab N M) M.
Proof.
  apply is_tab_map; intros k; [rewrite map_length, seq_length; reflexivity|]. intros j _ Hj.
  rewrite (nth_indep _ 0 (M k 0%nat)), map_nth, seq_nth by (rewrite ?map_length, ?seq_length; exact Hj). reflexivity.
Qed.

Lemma lmul_correct N A t M : is_tab N t M -> is_tab N (lmul N A t) (mmul N A M).
Proof.
  intros [[HL HR] HM].
  assert (R : forall k j, length (lrow N (A k) t) = N /\
                          nth j (lrow N (A k) t) 0 == bigsum (fun m => A k m * tget t m j) N).
  { intros k j. destruct (fold_lstep (A k) j N 0 t (repeat 0 N) HL) as [IL IN].
    - intros b Hb. rewrite repeat_length. apply HR, Hb.
    - split; [rewrite <- (repeat_length 0 N) at 2; exact IL|].
      unfold lrow. fold (lstep (A k)). rewrite IN, nth_repeat. cbn [Nat.add]. unfold tget. ring. }
  apply is_tab_map; intros k; [apply (R k 0%nat)|]. intros j _ Hj. rewrite (proj2 (R k j)).
  apply bigsum_ext. intros m Hm. rewrite (HM m j Hm Hj). reflexivity.
Qed.

Lemma lpow_spec N A p : is_tab N (lpow N A p) (mpow N A p).
Proof. induction p as [|p IH]; cbn [lpow mpow]; [apply is_tab_tab | apply lmul_correct, IH]. Qed.

Lemma Ubc_tab_spec N lo d : is_tab N (Ubc_tab N lo d) (Ubc N lo d).
Proof. induction d as [|d IH]; cbn [Ubc_tab Ubc]; [apply is_tab_tab | apply lmul_correct, IH]. Qed.

Lemma Ubc_inv_tab_spec N d : forall lo, is_tab N (Ubc_inv_tab N lo d) (Ubc_inv N lo d).
Proof. induction d as [|d IH]; intros lo; cbn [Ubc_inv_tab Ubc_inv]; [apply is_tab_tab | apply lmul_correct, IH]. Qed.

(* the tables the kernel compares with the live code are the matrices of the theorems *)
Theorem tables_are_model N :
  (forall fac p, meq N (tget (DTp_tab N fac p)) (DTp N fac p)) /\
  (forall lo d, meq N (tget (Ubc_tab N lo d)) (Ubc N lo d)) /\
  (forall lo d, meq N (tget (Ubc_inv_tab N lo d)) (Ubc_inv N lo d)).
Proof.
  split; [|split; intros; [apply Ubc_tab_spec | apply Ubc_inv_tab_spec]].
  intros fac p k j Hk Hj. unfold DTp_tab, DTp, tget. destruct (lpow_spec N DT p) as [[HL HR] M].
  set (f := fun q => q * / Qpown fac p).
  rewrite (nth_indep _ [] (map f [])), (map_nth (map f)) by (rewrite map_length; lia).
  rewrite (nth_indep _ 0 (f 0)), (map_nth f) by (rewrite map_length, HR by (apply nth_In; lia); lia).
  fold (tget (lpow N DT p) k j). unfold f. rewrite (M k j Hk Hj). reflexivity.
Qed.

(* the model's shift-based dyadic operations are those of Base.DyadicFast, hence equal to Base.Dyadic's *)
Lemma fsub_eq a b : fsub a b = dsub a b.
Proof. exact (DyadicFast.fsub_eq a b). Qed.
Lemma fleb_eq a b : fleb a b = dleb a b.
Proof. exact (DyadicFast.fleb_eq a b). Qed.
Lemma fltb_eq a b : fltb a b = dltb a b.
Proof. exact (DyadicFast.fltb_eq a b). Qed.

(* fftfreq ordering: the wavenumber of index j is the representative of j mod N in [-N/2, N/2) *)
Theorem wavenum_spec N j : (j < N)%nat ->
  ((wavenum N j - Z.of_nat j) mod Z.of_nat N = 0 /\ - Z.of_nat N <= 2 * wavenum N j < Z.of_nat N)%Z.
Proof.
  intros Hj. unfold wavenum. destruct (2 * j <? N)%nat eqn:E.
  - apply Nat.ltb_lt in E. split; [rewrite Z.sub_diag; apply Z.mod_0_l; lia | lia].
  - apply Nat.ltb_ge in E. split; [|lia].
    replace (Z.of_nat j - Z.of_nat N - Z.of_nat j)%Z with (-1 * Z.of_nat N)%Z by lia.
    apply Z.mod_mul. lia.
Qed.

Lemma wavenum_unique N j k : (j < N)%nat ->
  ((k - Z.of_nat j) mod Z.of_nat N = 0 -> - Z.of_nat N <= 2 * k < Z.of_nat N -> k = wavenum N j)%Z.
Proof.
  intros Hj Hm Hr. destruct (wavenum_spec N j Hj) as [Hm' Hr'].
  apply Z.mod_divide in Hm; [|lia]. apply Z.mod_divide in Hm'; [|lia].
  destruct Hm as [a Ha]. destruct Hm' as [b Hb].
  destruct (Z.eq_dec a b) as [->|Hne]; [lia|].
  exfalso. assert (Hc : (a - b >= 1 \/ a - b <= -1)%Z) by lia.
  assert (Hd : (k - wavenum N j = (a - b) * Z.of_nat N)%Z) by lia.
  destruct Hc; nia.
Qed.

Lemma wavenum_nyquist N : Nat.even N = true -> (0 < N)%nat -> wavenum N (nyquist N) = (- Z.of_nat (N / 2))%Z.
Proof.
  intros He HN. apply Nat.even_spec in He. destruct He as [h Hh]. unfold wavenum, nyquist. subst N.
  replace (2 * h / 2)%nat with h by (rewrite Nat.mul_comm, Nat.div_mul; lia).
  replace (2 * h <? 2 * h)%nat with false by (symmetry; apply Nat.ltb_ge; lia). lia.
Qed.

Definition ceq (a b : C) : Prop := fst a == fst b /\ snd a == snd b.

Lemma cmul_i_k k (z : C) : ceq (cmul (0, k) z) (- k * snd z, k * fst z).
Proof. unfold ceq, cmul. cbn [fst snd]. split; ring. Qed.

Lemma cpow_inverse a b p : ceq (cmul a b) (1, 0) -> ceq (cmul (cpow a p) (cpow b p)) (1, 0).
Proof.
  intros [H1 H2]. induction p as [|p [I1 I2]]; [split; reflexivity|].
  cbn [cpow]. destruct a as [a1 a2], b as [b1 b2].
  destruct (cpow (a1, a2) p) as [A1 A2], (cpow (b1, b2) p) as [B1 B2]. unfold ceq, cmul in *. cbn [fst snd] in *.
  split.
  - transitivity ((a1 * b1 - a2 * b2) * (A1 * B1 - A2 * B2) - (a1 * b2 + a2 * b1) * (A1 * B2 + A2 * B1)); [ring|].
    rewrite H1, H2, I1, I2. ring.
  - transitivity ((a1 * b1 - a2 * b2) * (A1 * B2 + A2 * B1) + (a1 * b2 + a2 * b1) * (A1 * B1 - A2 * B2)); [ring|].
    rewrite H1, H2, I1, I2. ring.
Qed.

Lemma coef_map_Qred p m : coef (map Qred p) m == coef p m.
Proof. unfold coef. change 0 with (Qred 0) at 1. rewrite map_nth. apply Qred_correct. Qed.

Lemma geg_SS lam n m :
  (Qn n + 2) * coef (geg lam (S (S n))) m
  == 2 * (Qn n + 1 + Qn lam) * shiftc (coef (geg lam (S n))) m - (Qn n + 2 * Qn lam) * coef (geg lam n) m.
Proof.
  unfold geg. cbn [geg_pair]. destruct (geg_pair lam n) as [a b]. cbn [fst].
  rewrite coef_map_Qred, coef_pscale, coef_psub, !coef_pscale, coef_pX.
  replace (2 * lam)%nat with (lam + lam)%nat by lia. rewrite !Qn_add.
  change (Qn 2) with 2. change (Qn 1) with 1. pose proof (Qn_nonneg n). field. lra.
Qed.

(* C^(lam)_{k-2}, zero below degree 0: with this convention the recurrence holds at every index *)
Definition gegx (lam k : nat) : list Q := match k with S (S n) => geg lam n | _ => [] end.

(* index and order enter as rationals q == Qn j, L == Qn lam: the instances at j+2, lam+1 are then taken at q+2, L+1 with a
   linear side condition, and no goal has to be rewritten with Qn_S *)
Lemma gegx_rec lam j m q L : q == Qn j -> L == Qn lam ->
  q * coef (gegx lam (S (S j))) m
  == 2 * (q - 1 + L) * shiftc (coef (gegx lam (S j))) m - (q - 2 + 2 * L) * coef (gegx lam j) m.
Proof.
  intros Hq HL. destruct j as [|[|n]]; cbn [gegx].
  - change (Qn 0) with 0 in Hq. rewrite shiftc_0, coef_nil, Hq. ring.
  - change (Qn 1) with 1 in Hq. change (geg lam 1) with [0; 2 * Qn lam]. change (geg lam 0) with [1].
    rewrite coef_nil, Hq, HL. destruct m as [|[|[|m]]]; unfold coef; cbn [shiftc nth]; ring.
  - assert (Eq : q == Qn n + 2) by (pose proof (Qn_S n); pose proof (Qn_S (S n)); lra).
    rewrite Eq, HL. pose proof (geg_SS lam n m) as H. lra.
Qed.

Theorem geg1_is_chebU j : peq (geg 1 j) (chebU j).
Proof.
  induction j as [| |j IH0 IH1] using nat_ind2; intros m.
  - reflexivity.
  - destruct m as [|[|m]]; reflexivity.
  - pose proof (geg_SS 1 j m) as H. rewrite (shiftc_ext _ _ m IH1), (IH0 m) in H.
    rewrite chebU_SS, coef_psub, coef_pscale, coef_pX.
    change (Qn 1) with 1 in H. pose proof (Qn_nonneg j).
    apply (Qmult_inj_l _ _ (Qn j + 2)); [lra|]. rewrite H. ring.
Qed.

Lemma Qsolve a x b : a * x == b -> ~ a == 0 -> x == b / a.
Proof. intros H Ha. rewrite <- H. field. exact Ha. Qed.

Lemma Qsolve_sub a x b c : c == a * x - b -> ~ a == 0 -> x == (c + b) / a.
Proof. intros H Ha. rewrite H. field. exact Ha. Qed.

(* (lam + k) C^(lam)_k = lam (C^(lam+1)_k - C^(lam+1)_{k-2}); the factor lam + k enters as a rational d *)
Lemma geg_lower lam k : (1 <= lam)%nat -> forall m d, d == Qn lam + Qn k ->
  d * coef (geg lam k) m == Qn lam * (coef (geg (S lam) k) m - coef (gegx (S lam) k) m).
Proof.
  intros Hl.
  assert (HL : 1 <= Qn lam) by (destruct lam as [|l]; [lia|]; rewrite Qn_S; pose proof (Qn_nonneg l); lra).
  pose proof (Qn_S lam) as SL. set (L := Qn lam) in *.
  induction k as [| |k IH0 IH1] using nat_ind2; intros m d Hd.
  - change (geg (S lam) 0) with (geg lam 0). change (Qn 0) with 0 in Hd. cbn [gegx]. rewrite coef_nil, Hd. ring.
  - change (geg lam 1) with [0; 2 * Qn lam]. change (geg (S lam) 1) with [0; 2 * Qn (S lam)]. change (Qn 1) with 1 in Hd.
    cbn [gegx]. rewrite coef_nil, Hd. destruct m as [|[|[|m]]]; unfold coef; cbn [nth]; rewrite ?SL; fold L; ring.
  - (* eliminate C^(lam)_{k+2} by its recurrence (E1), x C^(lam)_{k+1} and C^(lam)_k by the hypotheses at k+1 and k
       (E4, E5), x C^(lam+1)_{k+1} and x C^(lam+1)_{k-1} by the recurrence of C^(lam+1) at k+2 and at k (E2, E3):
       what is left is an identity between C^(lam+1)_{k+2}, C^(lam+1)_k and C^(lam+1)_{k-2} *)
    pose proof (Qn_S k) as S1. pose proof (Qn_S (S k)) as S2. pose proof (Qn_nonneg k) as K0.
    pose proof (gegx_rec lam (S (S k)) m (d - L) L ltac:(lra) (Qeq_refl _)) as E1.
    pose proof (gegx_rec (S lam) (S (S k)) m (d - L) (L + 1) ltac:(lra) (Qeq_sym _ _ SL)) as E2.
    pose proof (gegx_rec (S lam) k m (d - L - 2) (L + 1) ltac:(lra) (Qeq_sym _ _ SL)) as E3.
    pose proof (shiftc_lin _ _ _ _ _ m (fun m' => IH1 m' (d - 1) ltac:(lra))) as E4.
    pose proof (IH0 m (d - 2) ltac:(lra)) as E5.
    cbn [gegx] in E1, E2 |- *. change (gegx (S lam) (S (S k))) with (geg (S lam) k) in E3.
    assert (D2 : 2 <= d - L) by lra. clear IH0 IH1 S1 S2 K0 Hd SL.
    rewrite (Qsolve _ _ _ E1), (Qsolve _ _ _ E4), (Qsolve _ _ _ E5), (Qsolve_sub _ _ _ _ E2), (Qsolve_sub _ _ _ _ E3) by lra.
    field. lra.
Qed.

(* column j of S_lam holds the C^(lam+1) coefficients of C^(lam)_j *)
Lemma US_sem N lam m j : (1 <= lam)%nat -> (j < N)%nat -> cmat (geg lam) m j == mmul N (cmat (geg (S lam))) (US lam) m j.
Proof.
  intros Hl Hj. rewrite mmul_bidiag_col, US_diag by (try lia; intros; apply US_support; lia). unfold cmat.
  pose proof (geg_lower lam j Hl m _ (Qn_add lam j)) as H. destruct lam as [|l]; [lia|].
  assert (D : ~ Qn (S l + j) == 0) by apply Qn_neq0.
  apply (Qmult_inj_l _ _ (Qn (S l + j))); [exact D|]. rewrite H.
  destruct j as [|[|i]]; rewrite ?US_super; cbn [gegx]; rewrite ?coef_nil; field; exact D.
Qed.

(* S_lam converts a C^(lam) series into the C^(lam+1) basis (lam = 0 is T2U_correct) *)
Theorem ultra_S_correct N lam c : (1 <= lam)%nat ->
  peq (pseries (geg lam) c N) (pseries (geg (S lam)) (mv N (US lam) c) N).
Proof. intros Hl. apply series_convert. intros m j. apply US_sem, Hl. Qed.

(* the basis get_basis_change_matrix calls p: Chebyshev T for p = 0, Gegenbauer C^(p) above *)
Definition ubasis (lam : nat) : nat -> list Q := match lam with O => chebT | _ => geg lam end.

Lemma US_correct N lam c : peq (pseries (ubasis lam) c N) (pseries (ubasis (S lam)) (mv N (US lam) c) N).
Proof.
  destruct lam as [|l]; [|apply ultra_S_correct; lia]. cbn [ubasis US].
  rewrite T2U_correct. apply pseries_basis_ext. intros j _. symmetry. apply geg1_is_chebU.
Qed.

Lemma Ubc_correct N lo d c : peq (pseries (ubasis lo) c N) (pseries (ubasis (lo + d)) (mv N (Ubc N lo d) c) N).
Proof.
  induction d as [|d IH]; cbn [Ubc].
  - rewrite Nat.add_0_r. apply pseries_ext. intros j Hj. symmetry. apply mv_I, Hj.
  - rewrite Nat.add_succ_r, IH, US_correct. apply pseries_ext. intros j Hj. symmetry. apply mv_mmul.
Qed.

(* ultraspherical differentiation: the p-th derivative of a T series in the C^(p) basis.
   The sparse D_p is right because it is the dense D^p followed by the basis change (ultra_matches_dense). *)
Theorem ultra_diff_correct N p c : (1 <= p)%nat ->
  peq (pderiv_n p (pseries chebT c N)) (pseries (geg p) (mv N (UD 1 p) c) N).
Proof.
  intros Hp. rewrite cheb_diff_p_correct, (Ubc_correct N 0 p). destruct p as [|p]; [lia|]. cbn [Nat.add ubasis].
  apply pseries_ext. intros k Hk. rewrite <- mv_mmul.
  apply mv_ext; [exact Hk | apply ultra_matches_dense, Hp | reflexivity].
Qed.

Theorem ultra_diff_correct_upto64 N p c : (N <= 64)%nat -> (p = 1 \/ p = 2 \/ p = 3)%nat ->
  peq (pderiv_n p (pseries chebT c N)) (pseries (geg p) (mv N (UD 1 p) c) N).
Proof. intros _ Hp. apply ultra_diff_correct. lia. Qed.

Theorem ultra_S_correct_upto64 N lam c : (N <= 64)%nat -> (lam = 1 \/ lam = 2)%nat ->
  peq (pseries (geg lam) c N) (pseries (geg (S lam)) (mv N (US lam) c) N).
Proof. intros _ Hl. apply ultra_S_correct. lia. Qed.

Theorem geg1_is_chebU_upto64 j : (j < 64)%nat -> peq (geg 1 j) (chebU j).
Proof. intros _. apply geg1_is_chebU. Qed.

Lemma coef_plin a b q m : coef (plin a b q) m == a * shiftc (coef q) m + b * coef q m.
Proof. unfold plin. rewrite coef_padd, !coef_pscale, coef_pX. reflexivity. Qed.

Global Instance plin_peq a b : Proper (peq ==> peq) (plin a b).
Proof. intros q1 q2 H m. rewrite !coef_plin, (shiftc_ext _ _ m H), (H m). reflexivity. Qed.

Lemma plin_pscale a b c q : peq (plin a b (pscale c q)) (pscale c (plin a b q)).
Proof.
  intros m. rewrite coef_pscale, !coef_plin. destruct m as [|m]; cbn [shiftc]; rewrite ?coef_pscale; ring.
Qed.

Lemma pderiv_plin a b q : peq (pderiv (plin a b q)) (padd (pscale a q) (plin a b (pderiv q))).
Proof.
  intros m. rewrite coef_pderiv, coef_padd, coef_pscale, !coef_plin. cbn [shiftc].
  destruct m as [|m]; cbn [shiftc]; rewrite !coef_pderiv.
  - change (Qn 1) with 1. ring.
  - rewrite (Qn_S (S m)). ring.
Qed.

Lemma pderiv_linpow a b j : peq (pderiv (linpow a b (S j))) (pscale (a * Qn (S j)) (linpow a b j)).
Proof.
  induction j as [|j IH].
  - intros m. cbn [linpow]. rewrite coef_pderiv, coef_pscale, coef_plin. cbn [shiftc].
    destruct m as [|[|m]]; unfold coef; cbn [nth]; ring.
  - change (linpow a b (S (S j))) with (plin a b (linpow a b (S j))).
    rewrite pderiv_plin, IH, plin_pscale. intros m. rewrite coef_padd, !coef_pscale.
    change (plin a b (linpow a b j)) with (linpow a b (S j)). rewrite (Qn_S (S j)). ring.
Qed.

Lemma pderiv_length p : length (pderiv p) = (length p - 1)%nat.
Proof.
  destruct p as [|a p]; [reflexivity|]. cbn [pderiv length Nat.sub]. rewrite Nat.sub_0_r.
  generalize 1%nat. induction p as [|x p IH]; intros k; cbn [pderiv_from length]; [|rewrite IH]; reflexivity.
Qed.

Lemma pderiv_pcomp_aff a b p : peq (pderiv (pcomp_aff a b p)) (pscale a (pcomp_aff a b (pderiv p))).
Proof.
  unfold pcomp_aff. rewrite pderiv_pseries. intros m. rewrite coef_pscale, !coef_pseries, pderiv_length.
  destruct (length p) as [|n]; cbn [Nat.sub]; [cbn [bigsum]; ring|].
  rewrite Nat.sub_0_r, bigsum_front, <- bigsum_scal. cbn [linpow pderiv pderiv_from]. rewrite coef_nil.
  setoid_replace (coef p 0 * 0) with 0 by ring. rewrite Qplus_0_l.
  apply bigsum_ext. intros i Hi.
  rewrite (pderiv_linpow a b i m), coef_pscale, coef_pderiv. ring.
Qed.

Global Instance pcomp_aff_peq a b : Proper (peq ==> peq) (pcomp_aff a b).
Proof. intros p q H m. unfold pcomp_aff. rewrite !coef_pseries. apply (bigsum_coef_peq p q (fun j => coef (linpow a b j) m) H). Qed.

Lemma pcomp_aff_pscale a b c p : peq (pcomp_aff a b (pscale c p)) (pscale c (pcomp_aff a b p)).
Proof.
  intros m. unfold pcomp_aff. rewrite coef_pscale, !coef_pseries. unfold pscale at 2. rewrite map_length.
  rewrite <- bigsum_scal. apply bigsum_ext. intros j Hj. rewrite coef_pscale. ring.
Qed.

Lemma pderiv_n_pcomp_aff a b p P :
  peq (pderiv_n p (pcomp_aff a b P)) (pscale (Qpown a p) (pcomp_aff a b (pderiv_n p P))).
Proof.
  induction p as [|p IH]; cbn [pderiv_n Qpown].
  - intros m. rewrite coef_pscale. ring.
  - rewrite IH, pderiv_pscale, pderiv_pcomp_aff. intros m. rewrite !coef_pscale. ring.
Qed.

Lemma Qpown_neq0 a p : ~ a == 0 -> ~ Qpown a p == 0.
Proof. intros Ha. induction p as [|p IH]; cbn [Qpown]; [discriminate|]. intro E. apply Qmult_integral in E. tauto. Qed.

Lemma Qpown_inv a p : ~ a == 0 -> Qpown (/ a) p == / Qpown a p.
Proof.
  intros Ha. induction p as [|p IH]; cbn [Qpown]; [reflexivity|]. rewrite IH.
  pose proof (Qpown_neq0 a p Ha). field. auto.
Qed.

(* a differentiation operator stays one on [x0, x1] when its result is divided by fac^p:
   with y = fac x + off,  q(y) = sum_j c_j T_j((y - off)/fac)  has  q^(p)(y) = sum_k (d_k / fac^p) b_k((y - off)/fac) *)
Lemma diff_mapped (b : nat -> list Q) N c d d' fac off p : ~ fac == 0 ->
  peq (pderiv_n p (pseries chebT c N)) (pseries b d N) ->
  (forall k, (k < N)%nat -> d' k == d k / Qpown fac p) ->
  peq (pderiv_n p (pcomp_aff (/ fac) (- off / fac) (pseries chebT c N)))
      (pcomp_aff (/ fac) (- off / fac) (pseries b d' N)).
Proof.
  intros Hf H Hd. rewrite pderiv_n_pcomp_aff, H, <- pcomp_aff_pscale, <- pseries_scale.
  apply pcomp_aff_peq, pseries_ext. intros k Hk. rewrite (Hd k Hk), Qpown_inv by exact Hf. unfold Qdiv. ring.
Qed.

(* the operator the code returns on [x0, x1] (D^p / fac^p) differentiates the MAPPED series *)
Theorem cheb_diff_mapped N c fac off p : ~ fac == 0 ->
  peq (pderiv_n p (pcomp_aff (/ fac) (- off / fac) (pseries chebT c N)))
      (pcomp_aff (/ fac) (- off / fac) (pseries chebT (mv N (DTp N fac p) c) N)).
Proof.
  intros Hf. apply (diff_mapped chebT N c _ _ fac off p Hf (cheb_diff_p_correct N c p)).
  intros k _. unfold mv, DTp, Qdiv. rewrite <- bigsum_scal_r. apply bigsum_ext. intros j _. ring.
Qed.

(* values of the factors of pcomp_aff (Props/C17.v: (p o aff)(y) = p(a y + b)) *)
Lemma peval_plin a b q x : peval (plin a b q) x == (a * x + b) * peval q x.
Proof. unfold plin. rewrite peval_padd, !peval_pscale, peval_pX. ring. Qed.
Lemma peval_linpow a b j x : peval (linpow a b j) x == qpow (a * x + b) j.
Proof.
  induction j as [|j IH]; cbn [linpow qpow].
  - rewrite peval_cons, peval_nil. ring.
  - rewrite peval_plin, IH. reflexivity.
Qed.
Lemma UD_fac fac p k j : ~ fac == 0 -> UD fac p k j == UD 1 p k j / Qpown fac p.
Proof.
  intros Hf. unfold UD. destruct (Nat.eqb (k + p) j); [|unfold Qdiv; ring].
  rewrite Qpown_1. field. apply Qpown_neq0, Hf.
Qed.

(* ultraspherical differentiation on an interval: D_p / fac^p gives the C^(p) coefficients (mapped basis) of the p-th derivative *)
Theorem ultra_diff_mapped N p c fac off : (1 <= p)%nat -> ~ fac == 0 ->
  peq (pderiv_n p (pcomp_aff (/ fac) (- off / fac) (pseries chebT c N)))
      (pcomp_aff (/ fac) (- off / fac) (pseries (geg p) (mv N (UD fac p) c) N)).
Proof.
  intros Hp Hf. apply (diff_mapped (geg p) N c _ _ fac off p Hf (ultra_diff_correct N p c Hp)).
  intros k _. unfold mv, Qdiv. rewrite <- bigsum_scal_r. apply bigsum_ext. intros j _.
  rewrite (UD_fac fac p k j Hf). unfold Qdiv. ring.
Qed.

Theorem ultra_diff_mapped_upto64 N p c fac off : (N <= 64)%nat -> (p = 1 \/ p = 2 \/ p = 3)%nat -> ~ fac == 0 ->
  peq (pderiv_n p (pcomp_aff (/ fac) (- off / fac) (pseries chebT c N)))
      (pcomp_aff (/ fac) (- off / fac) (pseries (geg p) (mv N (UD fac p) c) N)).
Proof. intros _ Hp. apply ultra_diff_mapped. lia. Qed.
