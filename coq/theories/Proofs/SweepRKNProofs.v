(* C02 (extension) — proofs about Model/SweepRKN.v (RungeKuttaNystrom.update_nodes / compute_end_point).
   K is an arbitrary commutative ring; the problem's eval_f, build_f and boris_solver are arbitrary functions. *)
From Coq Require Import List Arith Bool Lia Ring.
From PySDC Require Import Model.Sweep Model.SweepRKN Proofs.SweepProofs.
Import ListNotations.

Section RKNProofs.
  Context {K : Type} (kO kI : K) (kadd kmul ksub : K -> K -> K) (kopp : K -> K).
  Hypothesis Rth : ring_theory kO kI kadd kmul ksub kopp (@eq K).
  Add Ring KringRKN : Rth.
  Context {X : Type} {Fd : Type} {A : Type}.
  Notation V := (X -> K).
  Local Infix "+!" := kadd (at level 50, left associativity).
  Local Infix "*!" := kmul (at level 40, left associativity).
  Local Infix "-!" := ksub (at level 50, left associativity).
  Variable M : nat.
  Variable dt t0 : K.
  Variable nodes : nat -> K.
  Variable QI Qx : nat -> nat -> K.
  Variable feval : A -> V -> V -> K -> Fd.
  Variable build_f : Fd -> A -> V -> V -> K -> V.
  Variable boris : V -> K -> Fd -> Fd -> A -> V -> V -> V.
  Notation tn := (rkn_tn kadd kmul dt t0 nodes).
  Notation sumf := (sumf kO kadd).
  Notation accum_spec := (accum_spec kO kI kadd kmul ksub kopp Rth).
  Notation sumf_lin := (sumf_lin kO kI kadd kmul ksub kopp Rth).
  Notation sumf_scal_l := (sumf_scal_l kO kI kadd kmul ksub kopp Rth).
  Notation st_t := (@rkn_st K X Fd A).
  Notation inner b := (rkn_inner_step kO kadd kmul dt t0 nodes QI Qx b feval build_f boris).
  Notation stage b := (rkn_stage kO kadd kmul M dt t0 nodes QI Qx b feval build_f boris).
  Notation update b := (rkn_update kO kadd kmul M dt t0 nodes QI Qx b feval build_f boris).

  (* the acceleration the code builds for stage j from the level's data:  P.build_f(L.f[j], L.u[j], t0 + dt*nodes[j]) *)
  Definition rkn_acc (r : st_t) (j : nat) : V := build_f (rf r j) (ra r j) (rp r j) (rv r j) (tn j).

  (* explicit branch (coll.implicit = False) *)
  Lemma rkn_inner_explicit m (at_ : nat -> A) (p v : nat -> V) : forall n lo (a b : V) (f : nat -> Fd),
    fold_left (inner false m at_ p v) (seq lo n) (a, b, f) =
    (accum kadd a lo n (fun j => vscale kmul (dt *! dt *! Qx (S m) j) (build_f (f j) (at_ j) (p j) (v j) (tn j))),
     accum kadd b lo n (fun j => vscale kmul (dt *! QI (S m) j) (build_f (f j) (at_ j) (p j) (v j) (tn j))), f).
  Proof.
    induction n as [|n IH]; intros lo a b f; [reflexivity|].
    cbn [seq fold_left]. unfold accum. cbn [seq fold_left]. unfold rkn_inner_step at 2. rewrite IH. reflexivity.
  Qed.

  Definition rkn_xpos (r : st_t) (p0 v0 : V) (m : nat) : V :=
    accum kadd (vadd kadd p0 (vscale kmul (dt *! nodes (S m)) v0)) 1 m (fun j => vscale kmul (dt *! dt *! Qx (S m) j) (rkn_acc r j)).
  Definition rkn_xvel (r : st_t) (v0 : V) (m : nat) : V :=
    accum kadd v0 1 m (fun j => vscale kmul (dt *! QI (S m) j) (rkn_acc r j)).

  Lemma rkn_stage_explicit (st : st_t) m :
    stage false st m =
    {| ra := upd (ra st) (S m) (ra st 0);
       rp := upd (rp st) (S m) (rkn_xpos st (rp st 0) (rv st 0) m);
       rv := upd (rv st) (S m) (rkn_xvel st (rv st 0) m);
       rf := if Nat.eqb m (M - 1) then rf st
             else upd (rf st) (S m) (feval (ra st 0) (rkn_xpos st (rp st 0) (rv st 0) m) (rkn_xvel st (rv st 0) m) (tn (S m))) |}.
  Proof. unfold rkn_stage. rewrite rkn_inner_explicit. rewrite upd_same. reflexivity. Qed.

  (* the stage loop through view_loop_spec: stage m - 1 writes node m >= 1 (the whole particle object and, except for the
     last node, its fields), reading node 0 and the nodes below m *)
  Definition rkn_view (s : st_t) (j : nat) : A * V * V * Fd := (ra s j, rp s j, rv s j, rf s j).
  Definition rkn_node (r : st_t) (o : A * V * V * Fd) (m : nat) : A * V * V * Fd :=
    let xp := rkn_xpos r (rp r 0) (rv r 0) (m - 1) in let xv := rkn_xvel r (rv r 0) (m - 1) in
    (ra r 0, xp, xv, if Nat.eqb (m - 1) (M - 1) then snd o else feval (ra r 0) xp xv (tn m)).

  Lemma rkn_loop_spec_explicit n k (st : st_t) : 1 <= k ->
    let r := fold_left (stage false) (map pred (seq k n)) st in
    (forall j, j < k \/ k + n <= j -> ra r j = ra st j /\ rp r j = rp st j /\ rv r j = rv st j /\ rf r j = rf st j) /\
    (forall m, k <= m < k + n ->
       ra r m = ra st 0 /\
       rp r m = rkn_xpos r (rp st 0) (rv st 0) (m - 1) /\
       rv r m = rkn_xvel r (rv st 0) (m - 1) /\
       (m < M -> rf r m = feval (ra r m) (rp r m) (rv r m) (tn m)) /\
       (m = M -> rf r m = rf st m)).
  Proof.
    intros Hk.
    destruct (view_loop_spec rkn_view (fun s m => stage false s (pred m)) (fun ms s => fold_left (stage false) (map pred ms) s)
                rkn_node 1 (fun _ => eq_refl) (fun _ _ _ => eq_refl)) with (n := n) (k := k) (s := st) as [Sf Sn].
    - intros s [|m] j Hm H; [lia|]. cbn [pred]. rewrite rkn_stage_explicit. unfold rkn_view. cbn [ra rp rv rf].
      destruct (Nat.eqb m (M - 1)); rewrite !upd_other by exact H; reflexivity.
    - intros s [|m] Hm; [lia|]. cbn [pred]. rewrite rkn_stage_explicit. unfold rkn_view, rkn_node. cbn [ra rp rv rf].
      replace (S m - 1) with m by lia. destruct (Nat.eqb m (M - 1)); rewrite !upd_same; reflexivity.
    - intros s s' o m Hm H.
      assert (E : forall j, 1 <= j < 1 + (m - 1) -> rkn_acc s j = rkn_acc s' j).
      { intros j Hj. unfold rkn_acc. injection (H j ltac:(lia)) as -> -> -> ->. reflexivity. }
      unfold rkn_node, rkn_xpos, rkn_xvel. injection (H 0 ltac:(lia)) as -> -> -> _.
      rewrite (accum_ext kadd _ 1 (m - 1) _ (fun j => vscale kmul (dt *! dt *! Qx (S (m - 1)) j) (rkn_acc s' j))),
              (accum_ext kadd (rv s' 0) 1 (m - 1) _ (fun j => vscale kmul (dt *! QI (S (m - 1)) j) (rkn_acc s' j)));
        [reflexivity | | ]; intros j Hj; rewrite (E j Hj); reflexivity.
    - exact Hk.
    - split.
      + intros j Hj. injection (Sf j Hj) as E1 E2 E3 E4. auto.
      + intros m Hm. injection (Sf 0 ltac:(lia)) as A0 P0 V0 _. injection (Sn m Hm) as Ea Ep Ev Ef.
        rewrite A0 in Ea, Ef. rewrite P0 in Ep, Ef. rewrite V0 in Ep, Ev, Ef.
        split; [exact Ea|]. split; [exact Ep|]. split; [exact Ev|]. rewrite Ef.
        destruct (Nat.eqb_spec (m - 1) (M - 1)); split; intros HM; try lia; [reflexivity|].
        rewrite Ea, <- Ep, <- Ev. reflexivity.
  Qed.

  (* RungeKuttaNystrom.update_nodes, explicit tableaus (shipped: RKN): Nystrom stage form.
     For EVERY number of stages, tableaus QI (velocity), Qx (position), nodes, dt, level data and problem:
       x_m = x_0 + dt c_m v_0 + dt^2 sum_{j<m} Qx[m,j] a_j,     v_m = v_0 + dt sum_{j<m} QI[m,j] a_j,
       a_j = build_f(f_j, (attr_j, x_j, v_j), t0 + dt c_j)  built from the NEW stage values,
     every stage carries the particle attributes (charges, masses) of u0 — whatever object sat in the node before —
     the stored fields of stage m < M are eval_f at the new stage particle and at the stage's OWN time t0 + dt*c_m,
     the last node's fields, node 0 and everything beyond M are untouched. *)
  Theorem rkn_explicit_stage_form (st : st_t) :
    let r := update false st in
    (forall j, j = 0 \/ M < j -> ra r j = ra st j /\ rp r j = rp st j /\ rv r j = rv st j /\ rf r j = rf st j) /\
    rf r M = rf st M /\
    forall m, 1 <= m <= M ->
      ra r m = ra st 0 /\
      (m < M -> rf r m = feval (ra r m) (rp r m) (rv r m) (tn m)) /\
      forall x,
        rp r m x = rp st 0 x +! dt *! nodes m *! rv st 0 x +! dt *! dt *! sumf (fun j => Qx m j *! rkn_acc r j x) 1 (m - 1) /\
        rv r m x = rv st 0 x +! dt *! sumf (fun j => QI m j *! rkn_acc r j x) 1 (m - 1).
  Proof.
    intros r. unfold rkn_update in r.
    assert (E : seq 0 M = map pred (seq 1 M)) by (rewrite <- seq_shift, map_map; symmetry; apply map_id).
    destruct (rkn_loop_spec_explicit M 1 st (le_n 1)) as [Sf Sn]. rewrite <- E in Sf, Sn. fold r in Sf, Sn.
    split; [intros j Hj; apply Sf; lia|]. split.
    - destruct (Nat.eq_dec M 0) as [HM|HM]; [rewrite HM; apply Sf; lia | apply (Sn M); lia].
    - intros m Hm. destruct (Sn m ltac:(lia)) as [E0 [Ep [Ev [Ef _]]]]. split; [exact E0|]. split; [exact Ef|].
      intros x. rewrite Ep, Ev. unfold rkn_xpos, rkn_xvel. rewrite !accum_spec.
      unfold vadd, vscale. replace (S (m - 1)) with m by lia.
      rewrite (sumf_lin (dt *! dt) (Qx m) (fun j => rkn_acc r j x) _ 1 (m - 1)) by (intros; ring).
      rewrite sumf_scal_l. split; ring.
  Qed.

  (* compute_end_point(): the last node; with the weights in the last row of the tableaus (what
     ButcherTableauNoCollUpdate builds for tableaus that are not globally stiffly accurate; validated on the real
     tables every run) it carries u0's particle attributes and is the Nystrom update  x0 + dt v0 + dt^2 sum bbar_j a_j,  v0 + dt sum b_j a_j *)
  Theorem rkn_end_point_form (st : st_t) (w wbar : nat -> K) :
    1 <= M -> nodes M = kI ->
    (forall j, 1 <= j <= M - 1 -> QI M j = w j /\ Qx M j = wbar j) ->
    let r := update false st in
    let e := rkn_end_point M r in
    e = (rp r M, rv r M) /\ rkn_end_attr M r = ra st 0 /\
    forall x,
      fst e x = rp st 0 x +! dt *! rv st 0 x +! dt *! dt *! sumf (fun j => wbar j *! rkn_acc r j x) 1 (M - 1) /\
      snd e x = rv st 0 x +! dt *! sumf (fun j => w j *! rkn_acc r j x) 1 (M - 1).
  Proof.
    intros HM Hn Hw r e. split; [reflexivity|].
    destruct (rkn_explicit_stage_form st) as [_ [_ H]]. fold r in H. destruct (H M ltac:(lia)) as [Hat [_ Hx]].
    split; [exact Hat|]. intros x.
    destruct (Hx x) as [Hp Hv]. unfold e, rkn_end_point. cbn [fst snd]. rewrite Hp, Hv, Hn. split.
    - rewrite (sumf_ext kO kadd (fun j => Qx M j *! rkn_acc r j x) (fun j => wbar j *! rkn_acc r j x) 1 (M - 1))
        by (intros j Hj; destruct (Hw j ltac:(lia)) as [_ ->]; reflexivity). ring.
    - rewrite (sumf_ext kO kadd (fun j => QI M j *! rkn_acc r j x) (fun j => w j *! rkn_acc r j x) 1 (M - 1))
        by (intros j Hj; destruct (Hw j ltac:(lia)) as [-> _]; reflexivity). reflexivity.
  Qed.

  (* implicit branch (coll.implicit = True; shipped: Velocity_Verlet) *)
  Notation update3 := (rkn_update kO kadd kmul 3 dt t0 nodes QI Qx true feval build_f boris).
  Notation "a +v b" := (vadd kadd a b) (at level 50, left associativity).
  Notation "c *v a" := (vscale kmul c a) (at level 40).

  (* RungeKuttaNystrom.update_nodes in its implicit branch with three nodes (two stages + solution stage: the shape of
     the only shipped implicit tableau, Velocity_Verlet), for ALL tables Qx, nodes, dt, level data and problem functions:
     the exact values every node holds afterwards (law-free: holds for floats as well).  The velocity tableau QI is
     not used at all; the Boris solve of the last node is done twice (j = 1, 2), the second one starting from the
     result of the first; the fields of u0 at t0 end up in every node. *)
  Theorem rkn_implicit_three_node_form (st : st_t) :
    let a0 := ra st 0 in
    let x0 := rp st 0 in
    let v0 := rv st 0 in
    let F0 := feval a0 x0 v0 t0 in
    let tend := t0 +! dt in
    let times0 := fun (v : V) => (fun x => v x *! kO) : V in
    let x1 : V := x0 +v (dt *! nodes 1) *v v0 in
    let a1 := build_f F0 a0 x1 v0 (tn 1) in
    let x2 : V := x0 +v (dt *! nodes 2) *v v0 +v (dt *! dt *! Qx 2 1) *v a1 in
    let v2 := boris (times0 v0) dt F0 (feval a0 x2 v0 tend) a0 x0 v0 in
    let a2 := build_f F0 a0 x2 v2 (tn 2) in
    let x3a : V := x0 +v (dt *! nodes 3) *v v0 +v (dt *! dt *! Qx 3 1) *v a1 in
    let v3a := boris (times0 v0) dt F0 (feval a0 x3a v0 tend) a0 x0 v0 in
    let x3 : V := x3a +v (dt *! dt *! Qx 3 2) *v a2 in
    let v3 := boris (times0 v3a) dt F0 (feval a0 x3 v3a tend) a0 x0 v0 in
    let r := update3 st in
    (rp r 0 = x0 /\ rv r 0 = v0) /\ (rp r 1 = x1 /\ rv r 1 = v0) /\ (rp r 2 = x2 /\ rv r 2 = v2) /\ (rp r 3 = x3 /\ rv r 3 = v3) /\
    (rf r 0 = F0 /\ rf r 1 = F0 /\ rf r 2 = F0 /\ rf r 3 = F0) /\
    (ra r 0 = a0 /\ ra r 1 = a0 /\ ra r 2 = a0 /\ ra r 3 = a0) /\
    (forall j, 3 < j -> ra r j = ra st j /\ rp r j = rp st j /\ rv r j = rv st j /\ rf r j = rf st j) /\
    rkn_end_point 3 r = (x3, v3) /\ rkn_end_attr 3 r = a0.
  Proof.
    cbv zeta. repeat split; try reflexivity;
      (destruct j as [|[|[|[|j]]]]; [lia|lia|lia|lia|reflexivity]).
  Qed.

  (* Velocity-Verlet form: with the table shape of Velocity_Verlet (all nodes 1, Qx[3,2] = 0; validated on the
     real tables every run), fields that do not depend on the velocity and a Boris solver that respects pointwise
     equality of its c-term (rkn_velocity_verlet_hyps_sat: satisfiable):
        x_new = x0 + dt v0 + dt^2 Qx[3,1] a(F(x0), (x0 + dt v0, v0)),
        v_new = boris(0, dt, F(x0), F(x_new), u0)          (Qx[3,1] = 1/2 for the shipped tableau),
     everything evaluated with the particle attributes of u0, which the end value carries. *)
  Corollary rkn_velocity_verlet_form (st : st_t) :
    nodes 1 = kI -> nodes 3 = kI -> Qx 3 2 = kO ->
    (forall a p v v' t, feval a p v t = feval a p v' t) ->
    (forall c c' d fo fn a p v, (forall x, c x = c' x) -> forall x, boris c d fo fn a p v x = boris c' d fo fn a p v x) ->
    let r := update3 st in
    let e := rkn_end_point 3 r in
    let a0 := ra st 0 in
    let F0 := feval a0 (rp st 0) (rv st 0) t0 in
    let a := build_f F0 a0 (rp r 1) (rv r 1) (t0 +! dt *! nodes 1) in
    (forall x, rp r 1 x = rp st 0 x +! dt *! rv st 0 x) /\ rv r 1 = rv st 0 /\ rkn_end_attr 3 r = a0 /\
    (forall x, fst e x = rp st 0 x +! dt *! rv st 0 x +! dt *! dt *! Qx 3 1 *! a x) /\
    (forall x, snd e x = boris (fun _ => kO) dt F0 (feval a0 (fst e) (rv st 0) (t0 +! dt)) a0 (rp st 0) (rv st 0) x).
  Proof.
    intros Hn1 Hn3 Hq Hfv Hb r e a0 F0 a.
    pose proof (rkn_implicit_three_node_form st) as T. cbv zeta in T. fold r a0 F0 in T.
    destruct T as (_ & [E1 Ev1] & _ & _ & _ & _ & _ & Ee & Ea).
    split; [intros x; rewrite E1; unfold vadd, vscale; rewrite Hn1; ring|].
    split; [exact Ev1|]. split; [exact Ea|]. unfold e, a. rewrite Ee, E1, Ev1. cbn [fst snd]. split; intros x.
    - unfold vadd, vscale, rkn_tn. rewrite Hq, Hn3. ring.
    - rewrite (Hfv a0 _ (boris _ _ _ _ _ _ _) (rv st 0)). apply Hb. intros y. ring.
  Qed.
End RKNProofs.

From Coq Require Import ZArith QArith Qcanon.

(* the hypotheses of rkn_velocity_verlet_form are satisfiable on a non-trivial instance (Z, one component,
   E = q x + t independent of the velocity, Boris solve v0 + c + q dt (E_old + E_new), attribute = charge q) *)
Example rkn_velocity_verlet_hyps_sat :
  let feval := fun (a : Z) (p v : unit -> Z) (t : Z) => (a * p tt + t)%Z in
  let boris := fun (c : unit -> Z) (d fo fn : Z) (a : Z) (p v : unit -> Z) => fun x : unit => (v x + c x + a * d * (fo + fn))%Z in
  (forall a p v v' t, feval a p v t = feval a p v' t) /\
  (forall c c' d fo fn a p v, (forall x, c x = c' x) -> forall x, boris c d fo fn a p v x = boris c' d fo fn a p v x).
Proof. split; [reflexivity|]. intros c c' d fo fn a p v H x. cbv beta. rewrite H. reflexivity. Qed.

(* Regression fact for the defect repaired in /repo commit e4532e8 (the old code evaluated the fields of stage m at the
   node of stage m-1): old and repaired behaviour are DISTINGUISHABLE on the shipped RKN tableau (nodes 0, 0, 1/2, 1/2, 1, 1 in
   pySDC layout) — with fields that depend on time only, stage 2 of the model holds the fields of its own time t0 + dt/2 and
   not those of t0 + dt*nodes[1] = t0 — so a return of the old behaviour cannot go unnoticed by the exact correspondence. *)
Lemma rkn_old_stage_time_observable :
  exists (M : nat) (dt t0 : Qc) (nodes : nat -> Qc) (QI Qx : nat -> nat -> Qc)
         (feval : unit -> (unit -> Qc) -> (unit -> Qc) -> Qc -> Qc) (build_f : Qc -> unit -> (unit -> Qc) -> (unit -> Qc) -> Qc -> unit -> Qc)
         (boris : (unit -> Qc) -> Qc -> Qc -> Qc -> unit -> (unit -> Qc) -> (unit -> Qc) -> unit -> Qc) (st : @rkn_st Qc unit Qc unit) (m : nat),
    let r := rkn_update 0%Qc Qcplus Qcmult M dt t0 nodes QI Qx false feval build_f boris st in
    (1 <= m < M)%nat /\
    rf r m = feval (ra r m) (rp r m) (rv r m) (rkn_tn Qcplus Qcmult dt t0 nodes m) /\
    rf r m <> feval (ra r m) (rp r m) (rv r m) (rkn_tn Qcplus Qcmult dt t0 nodes (m - 1)).
Proof.
  exists 5%nat, (Q2Qc 1), (Q2Qc 0),
    (fun i => nth i [Q2Qc 0; Q2Qc 0; Q2Qc (1#2); Q2Qc (1#2); Q2Qc 1; Q2Qc 1] (Q2Qc 0)),
    (fun _ _ => Q2Qc 0), (fun _ _ => Q2Qc 0),
    (fun _ _ _ t => t), (fun f _ _ _ _ _ => f), (fun _ _ _ _ _ _ v => v),
    {| ra := fun _ => tt; rp := fun _ _ => Q2Qc 0; rv := fun _ _ => Q2Qc 0; rf := fun _ => Q2Qc 0 |}, 2%nat.
  cbv zeta. split; [lia|]. split; [reflexivity|].
  intros H. apply (f_equal this) in H. vm_compute in H. discriminate H.
Qed.
