(* C12 — soundness of the solver-contract certificate checkers (Model/SolverContract.v). *)
From Coq Require Import ZArith QArith Qabs List Bool Lia Lqa.
From PySDC Require Import Base.Dyadic Model.SolverContract.
Import ListNotations.

Local Open Scope Q_scope.

Lemma D2Q_row_dot r u : D2Q (row_dot r u) == Qrow_dot r u.
Proof.
  induction r as [|[j a] r IH]; cbn [row_dot Qrow_dot]; [reflexivity|].
  rewrite D2Q_add, D2Q_mul, IH. reflexivity.
Qed.

Lemma dleb_abs_spec x tol : dleb (dabs x) tol = true -> Qabs (D2Q x) <= D2Q tol.
Proof. rewrite dleb_spec, D2Q_abs. intros H; exact H. Qed.

Lemma all_le_masked_length l mask tol : all_le_masked l mask tol = true -> length mask = length l.
Proof.
  revert mask. induction l as [|x l IH]; intros [|m mask] H; cbn in *; try discriminate; auto.
  apply andb_prop in H as [_ H]. f_equal. apply IH. exact H.
Qed.

Lemma all_le_masked_spec l mask tol : all_le_masked l mask tol = true ->
  forall i, (i < length l)%nat -> nth i mask false = true -> Qabs (D2Q (nth i l d0)) <= D2Q tol.
Proof.
  revert mask. induction l as [|x l IH]; intros [|m mask] H i Hi Hm; cbn in *; try discriminate; try lia.
  apply andb_prop in H as [H1 H2]. destruct i as [|i].
  - subst m. apply dleb_abs_spec. exact H1.
  - apply (IH mask H2); [lia | exact Hm].
Qed.

Lemma all_le_spec l tol : all_le l tol = true ->
  forall i, (i < length l)%nat -> Qabs (D2Q (nth i l d0)) <= D2Q tol.
Proof.
  induction l as [|x l IH]; intros H i Hi; cbn in *; try lia.
  apply andb_prop in H as [H1 H2]. destruct i as [|i]; [apply dleb_abs_spec; exact H1 | apply IH; [exact H2 | lia]].
Qed.

Lemma solve_resid_length factor uall A us rhs :
  length us = length A -> length rhs = length A ->
  length (solve_resid factor uall A us rhs) = length A.
Proof.
  revert us rhs. induction A as [|r A IH]; intros [|ui us] [|bi rhs] H1 H2; cbn in *; try discriminate; auto.
Qed.

Lemma nth_solve_resid factor uall A us rhs i :
  length us = length A -> length rhs = length A -> (i < length A)%nat ->
  nth i (solve_resid factor uall A us rhs) d0 =
  dsub (dsub (nth i us d0) (dmul factor (row_dot (nth i A []) uall))) (nth i rhs d0).
Proof.
  revert us rhs i. induction A as [|r A IH]; intros [|ui us] [|bi rhs] i H1 H2 Hi; try discriminate; [inversion Hi|].
  destruct i as [|i]; [reflexivity|]. cbn [length solve_resid nth] in *. apply IH; lia.
Qed.

(* MAIN: an accepted certificate implies the contract for every unmasked row, over Q *)
Theorem check_solve_cert_sound A factor rhs u mask atol rtol :
  check_solve_cert A factor rhs u mask atol rtol = true ->
  contract_holds A factor rhs u mask (D2Q (cert_tol A factor rhs u atol rtol)).
Proof.
  unfold check_solve_cert. intros [[[H1%Nat.eqb_eq H2%Nat.eqb_eq]%andb_prop H3%Nat.eqb_eq]%andb_prop H4]%andb_prop.
  repeat split; auto. intros i Hi Hm.
  pose proof (all_le_masked_spec _ _ _ H4 i) as S.
  rewrite solve_resid_length, nth_solve_resid in S by assumption. specialize (S Hi Hm).
  rewrite !D2Q_sub, D2Q_mul, D2Q_row_dot in S. exact S.
Qed.

Lemma contract_holds_weaken A factor rhs u mask tol tol' :
  contract_holds A factor rhs u mask tol -> tol <= tol' -> contract_holds A factor rhs u mask tol'.
Proof.
  intros [H1 [H2 [H3 H]]] Hle. repeat split; auto. intros i Hi Hm.
  eapply Qle_trans; [apply H; assumption | exact Hle].
Qed.

Lemma lin_resid_length uall G b : length b = length G -> length (lin_resid uall G b) = length G.
Proof.
  revert b. induction G as [|r G IH]; intros [|bi b] H; cbn in *; try discriminate; auto.
Qed.

Lemma nth_lin_resid uall G b i : length b = length G -> (i < length G)%nat ->
  nth i (lin_resid uall G b) d0 = dsub (row_dot (nth i G []) uall) (nth i b d0).
Proof.
  revert b i. induction G as [|r G IH]; intros [|bi b] i H Hi; try discriminate; [inversion Hi|].
  destruct i as [|i]; [reflexivity|]. cbn [length lin_resid nth] in *. apply IH; lia.
Qed.

Theorem check_lin_cert_sound G b u atol rtol :
  check_lin_cert G b u atol rtol = true -> lin_holds G b u (D2Q (lin_tol G b u atol rtol)).
Proof.
  unfold check_lin_cert. intros [H1%Nat.eqb_eq H2]%andb_prop. split; [exact H1|]. intros i Hi.
  pose proof (all_le_spec _ _ H2 i) as S.
  rewrite lin_resid_length, nth_lin_resid in S by assumption. specialize (S Hi).
  rewrite D2Q_sub, D2Q_row_dot in S. exact S.
Qed.

(* f = A u certified:  |(A u)_i - f_i| <= tol *)
Theorem check_apply_cert_sound A u f atol rtol :
  check_apply_cert A u f atol rtol = true -> lin_holds A f u (D2Q (lin_tol A f u atol rtol)).
Proof. apply check_lin_cert_sound. Qed.

Lemma vec_resid_length factor us fs rhs :
  length fs = length us -> length rhs = length us -> length (vec_resid factor us fs rhs) = length us.
Proof.
  revert fs rhs. induction us as [|ui us IH]; intros [|fi fs] [|bi rhs] H1 H2; cbn in *; try discriminate; auto.
Qed.

Lemma nth_vec_resid factor us fs rhs i :
  length fs = length us -> length rhs = length us -> (i < length us)%nat ->
  nth i (vec_resid factor us fs rhs) d0 = dsub (dsub (nth i us d0) (dmul factor (nth i fs d0))) (nth i rhs d0).
Proof.
  revert fs rhs i. induction us as [|ui us IH]; intros [|fi fs] [|bi rhs] i H1 H2 Hi; try discriminate; [inversion Hi|].
  destruct i as [|i]; [reflexivity|]. cbn [length vec_resid nth] in *. apply IH; lia.
Qed.

(* residual against given f values: |u_i - factor f_i - rhs_i| <= tol on unmasked rows *)
Definition resid_holds (factor : dy) (rhs u f : vec) (mask : list bool) (tol : Q) : Prop :=
  length f = length u /\ length rhs = length u /\ length mask = length u /\
  forall i, (i < length u)%nat -> nth i mask false = true ->
    Qabs (D2Q (vget u i) - D2Q factor * D2Q (vget f i) - D2Q (vget rhs i)) <= tol.

Theorem check_resid_cert_sound factor rhs u f mask tol :
  check_resid_cert factor rhs u f mask tol = true -> resid_holds factor rhs u f mask (D2Q tol).
Proof.
  unfold check_resid_cert. intros [[[H1%Nat.eqb_eq H2%Nat.eqb_eq]%andb_prop H3%Nat.eqb_eq]%andb_prop H4]%andb_prop.
  repeat split; auto. intros i Hi Hm.
  pose proof (all_le_masked_spec _ _ _ H4 i) as S.
  rewrite vec_resid_length, nth_vec_resid in S by assumption. specialize (S Hi Hm).
  rewrite !D2Q_sub, D2Q_mul in S. exact S.
Qed.

Lemma vadd_length a b : length a = length b -> length (vadd a b) = length b.
Proof. revert b. induction a as [|x a IH]; intros [|y b] H; cbn in *; try discriminate; auto. Qed.

Lemma vsub_length a b : length a = length b -> length (vsub a b) = length b.
Proof. revert b. induction a as [|x a IH]; intros [|y b] H; cbn in *; try discriminate; auto. Qed.

Lemma nth_vadd a b i : length a = length b -> (i < length b)%nat ->
  nth i (vadd a b) d0 = dadd (nth i a d0) (nth i b d0).
Proof.
  revert b i. induction a as [|x a IH]; intros [|y b] i H Hi; try discriminate; [inversion Hi|].
  destruct i as [|i]; [reflexivity|]. cbn [length vadd nth] in *. apply IH; lia.
Qed.

Lemma nth_vsub a b i : length a = length b -> (i < length b)%nat ->
  nth i (vsub a b) d0 = dsub (nth i a d0) (nth i b d0).
Proof.
  revert b i. induction a as [|x a IH]; intros [|y b] i H Hi; try discriminate; [inversion Hi|].
  destruct i as [|i]; [reflexivity|]. cbn [length vsub nth] in *. apply IH; lia.
Qed.

(* the pieces of a splitting sum to the full right-hand side, entry by entry *)
Theorem check_split_cert_sound f1 f2 ffull tol :
  check_split_cert f1 f2 ffull tol = true ->
  length f1 = length ffull /\ length f2 = length ffull /\
  forall i, (i < length ffull)%nat ->
    Qabs (D2Q (vget f1 i) + D2Q (vget f2 i) - D2Q (vget ffull i)) <= D2Q tol.
Proof.
  unfold check_split_cert. intros [[H1%Nat.eqb_eq H2%Nat.eqb_eq]%andb_prop H3]%andb_prop.
  repeat split; auto. intros i Hi.
  assert (La : length (vadd f1 f2) = length ffull) by (rewrite vadd_length; lia).
  pose proof (all_le_spec _ _ H3 i) as S.
  rewrite vsub_length, nth_vsub, nth_vadd in S by lia. specialize (S Hi).
  rewrite D2Q_sub, D2Q_add in S. exact S.
Qed.

Fixpoint Qddot (r u : list dy) : Q :=
  match r, u with
  | a :: r', x :: u' => D2Q a * D2Q x + Qddot r' u'
  | _, _ => 0
  end.

Lemma D2Q_ddot r u : D2Q (ddot r u) == Qddot r u.
Proof.
  revert u. induction r as [|a r IH]; intros [|x u]; cbn [ddot Qddot]; try reflexivity.
  rewrite D2Q_add, D2Q_mul, IH. reflexivity.
Qed.

Lemma Qddot_zeros n x : Qddot (dzeros n) x == 0.
Proof.
  revert x. induction n as [|n IH]; intros [|y x]; cbn [dzeros repeat Qddot]; try reflexivity.
  fold (dzeros n). rewrite IH, D2Q_d0. ring.
Qed.

Lemma vaxpy_length c r s : length r = length s -> length (vaxpy c r s) = length s.
Proof. revert s. induction r as [|a r IH]; intros [|x s] H; cbn in *; try discriminate; auto. Qed.

Lemma Qddot_vaxpy c r s x : length r = length s ->
  Qddot (vaxpy c r s) x == D2Q c * Qddot r x + Qddot s x.
Proof.
  revert s x. induction r as [|a r IH]; intros [|y s] x H; try discriminate H; [cbn; ring|].
  destruct x as [|z x]; cbn [vaxpy Qddot]; [ring|]. injection H as H. rewrite D2Q_add, D2Q_mul, IH by exact H. ring.
Qed.

Lemma dzeros_length n : length (dzeros n) = n.
Proof. apply repeat_length. Qed.

Lemma vec_mat_length n b G : rows_have_length n G = true -> length (vec_mat n b G) = n.
Proof.
  revert G. induction b as [|bj b IH]; intros [|r G] H; cbn [vec_mat]; try apply dzeros_length.
  cbn in H. apply andb_prop in H as [Hr HG]. apply Nat.eqb_eq in Hr.
  rewrite vaxpy_length; rewrite IH by exact HG; auto.
Qed.

Definition dense_apply (G : dmat) (x : list dy) : list dy := map (fun r => ddot r x) G.

(* (b^T G) x = b^T (G x) *)
Lemma Qddot_vec_mat n b G x : rows_have_length n G = true ->
  Qddot (vec_mat n b G) x == Qddot b (dense_apply G x).
Proof.
  revert G. induction b as [|bj b IH]; intros [|r G] H; cbn [vec_mat dense_apply map Qddot]; try apply Qddot_zeros.
  cbn in H. apply andb_prop in H as [Hr HG]. apply Nat.eqb_eq in Hr.
  rewrite Qddot_vaxpy, IH, D2Q_ddot by (rewrite ?vec_mat_length; assumption). reflexivity.
Qed.

Lemma Qddot_sub_unit c i w : (i < length c)%nat ->
  Qddot (sub_unit c i) w == Qddot c w - D2Q (nth i w d0).
Proof.
  revert i w. induction c as [|x c IH]; intros i w Hi; [inversion Hi|].
  destruct w as [|z w]; [destruct i; cbn [sub_unit Qddot nth]; rewrite D2Q_d0; ring|].
  destruct i as [|i]; cbn [sub_unit Qddot nth].
  - rewrite D2Q_sub, D2Q_d1. ring.
  - rewrite IH by (cbn [length] in Hi; lia). ring.
Qed.

Lemma dabs_sum_nonneg r : 0 <= D2Q (dabs_sum r).
Proof.
  induction r as [|a r IH]; cbn [dabs_sum]; [apply Qle_refl|].
  rewrite D2Q_add, D2Q_abs. pose proof (Qabs_nonneg (D2Q a)). lra.
Qed.

Lemma Qddot_bound a w N : 0 <= N -> (forall k, Qabs (D2Q (nth k w d0)) <= N) ->
  Qabs (Qddot a w) <= D2Q (dabs_sum a) * N.
Proof.
  intros HN. revert w. induction a as [|x a IH]; intros [|z w] Hw;
    try exact (Qmult_le_0_compat _ _ (dabs_sum_nonneg _) HN).
  cbn [Qddot dabs_sum]. rewrite D2Q_add, D2Q_abs, Qmult_plus_distr_l. eapply Qle_trans; [apply Qabs_triangle|]. rewrite Qabs_Qmult.
  apply Qplus_le_compat.
  - apply Qmult_le_l_weak; [apply Qabs_nonneg | exact (Hw 0%nat)].
  - apply IH. intros k. exact (Hw (S k)).
Qed.

Lemma Qddot_vsub r u v : length u = length v ->
  Qddot r (vsub u v) == Qddot r u - Qddot r v.
Proof.
  revert u v. induction r as [|a r IH]; intros u v H; [cbn; ring|].
  destruct u as [|x u], v as [|y v]; try discriminate H; cbn [vsub Qddot]; [ring|].
  injection H as H. rewrite D2Q_sub, IH by exact H. ring.
Qed.

(* max of absolute values: the fold of vdist, lin_cert_worst and split_cert_worst *)
Definition maxabs (l : list dy) : dy := fold_right (fun x acc => dmax (dabs x) acc) d0 l.

Lemma dmax_ge_l a b : D2Q a <= D2Q (dmax a b).
Proof. unfold dmax. destruct (dleb a b) eqn:E; [apply dleb_spec; exact E | apply Qle_refl]. Qed.

Lemma dmax_ge_r a b : D2Q b <= D2Q (dmax a b).
Proof.
  unfold dmax. destruct (dleb a b) eqn:E; [apply Qle_refl|].
  apply Qlt_le_weak, Qnot_le_lt. rewrite <- dleb_spec, E. discriminate.
Qed.

Lemma maxabs_ge l k : Qabs (D2Q (nth k l d0)) <= D2Q (maxabs l).
Proof.
  revert k. induction l as [|x l IH]; intros [|k]; cbn [maxabs fold_right nth]; try apply Qle_refl; fold (maxabs l).
  - rewrite <- D2Q_abs. apply dmax_ge_l.
  - eapply Qle_trans; [apply IH | apply dmax_ge_r].
Qed.

Lemma maxabs_attained l : maxabs l = d0 \/ exists k, (k < length l)%nat /\ maxabs l = dabs (nth k l d0).
Proof.
  induction l as [|x l IH]; [left; reflexivity|].
  cbn [maxabs fold_right]. fold (maxabs l). unfold dmax. destruct (dleb (dabs x) (maxabs l)).
  - destruct IH as [IH|[k [Hk IH]]]; [left; exact IH | right; exists (S k); split; [cbn; lia | exact IH]].
  - right. exists 0%nat. split; [cbn; lia | reflexivity].
Qed.

Lemma inverse_rows_ok_nth n G delta beta i0 B :
  inverse_rows_ok n G delta beta i0 B = true ->
  forall k, (k < length B)%nat -> inverse_row_ok n G delta beta (i0 + k) (nth k B []) = true.
Proof.
  revert i0. induction B as [|b B IH]; intros i0 H k Hk; cbn in *; try lia.
  apply andb_prop in H as [H1 H2]. destruct k as [|k].
  - rewrite Nat.add_0_r. exact H1.
  - rewrite Nat.add_succ_r. apply (IH (S i0)); [exact H2 | lia].
Qed.

Lemma rows_have_length_nth n G j : rows_have_length n G = true -> (j < length G)%nat ->
  length (nth j G []) = n.
Proof.
  unfold rows_have_length. intros H Hj. rewrite forallb_forall in H.
  apply Nat.eqb_eq. apply H. apply nth_In. exact Hj.
Qed.

(* An approximate left inverse B of G (||B G - I||_inf <= delta < 1, ||B||_inf <= beta) bounds every vector by its image:
   if |(G w)_k| <= M for all k then  max|w| (1 - delta) <= beta M.  In the row i where max|w| = |w_i| is attained,
   w_i = (B G w)_i - ((B G - I) w)_i,  |(B G w)_i| <= beta M  and  |((B G - I) w)_i| <= delta max|w|. *)
Theorem inverse_cert_bound G B delta beta w M :
  check_inverse_cert G B delta beta = true -> length w = length G -> 0 <= M ->
  (forall k, Qabs (D2Q (nth k (dense_apply G w) d0)) <= M) ->
  D2Q (maxabs w) * (1 - D2Q delta) <= D2Q beta * M.
Proof.
  unfold check_inverse_cert.
  intros [[[[[[HBn%Nat.eqb_eq HGr]%andb_prop _]%andb_prop Hd1%dltb_spec]%andb_prop Hd0%dleb_spec]%andb_prop
           Hb0%dleb_spec]%andb_prop HB]%andb_prop Lw HM HGw.
  change (D2Q delta < 1) in Hd1. change (0 <= D2Q delta) in Hd0. change (0 <= D2Q beta) in Hb0.
  pose proof (maxabs_ge w) as HN. set (N := D2Q (maxabs w)) in *.
  assert (HN0 : 0 <= N) by (eapply Qle_trans; [apply Qabs_nonneg | apply (HN 0%nat)]).
  destruct (maxabs_attained w) as [E|[i [Hi E]]].
  - unfold N. rewrite E, D2Q_d0, Qmult_0_l. apply Qmult_le_0_compat; assumption.
  - pose proof (inverse_rows_ok_nth _ _ _ _ _ _ HB i ltac:(lia)) as Hri. cbn [Nat.add] in Hri.
    apply andb_prop in Hri as [Hdel Hbet]. apply dleb_spec in Hdel, Hbet.
    pose proof (Qddot_sub_unit (vec_mat (length G) (nth i B []) G) i w) as E1.
    rewrite vec_mat_length, Qddot_vec_mat in E1 by exact HGr. specialize (E1 ltac:(lia)).
    assert (B1 : Qabs (Qddot (sub_unit (vec_mat (length G) (nth i B []) G) i) w) <= D2Q delta * N).
    { eapply Qle_trans; [apply (Qddot_bound _ w N HN0 HN)|]. apply Qmult_le_compat_r; assumption. }
    assert (B2 : Qabs (Qddot (nth i B []) (dense_apply G w)) <= D2Q beta * M).
    { eapply Qle_trans; [apply (Qddot_bound _ _ M HM HGw)|]. apply Qmult_le_compat_r; assumption. }
    assert (EN : N == Qabs (D2Q (nth i w d0))) by (unfold N; rewrite E; apply D2Q_abs).
    rewrite E1 in B1.
    apply Qabs_Qle_condition in B1, B2. revert EN. apply Qabs_case; intros; lra.
Qed.

Lemma dense_resid_length u G b : length b = length G -> length (dense_resid u G b) = length G.
Proof. revert b. induction G as [|r G IH]; intros [|bi b] H; cbn in *; try discriminate; auto. Qed.

Lemma nth_dense_resid u G b j : length b = length G -> (j < length G)%nat ->
  nth j (dense_resid u G b) d0 = dsub (ddot (nth j G []) u) (nth j b d0).
Proof.
  revert b j. induction G as [|r G IH]; intros [|bi b] j H Hj; try discriminate; [inversion Hj|].
  destruct j as [|j]; [reflexivity|]. cbn [length dense_resid nth] in *. apply IH; lia.
Qed.

Definition dense_holds (G : dmat) (b u : list dy) (tol : Q) : Prop :=
  length b = length G /\ length u = length G /\ rows_have_length (length G) G = true /\ 0 <= tol /\
  forall j, (j < length G)%nat -> Qabs (Qddot (nth j G []) u - D2Q (nth j b d0)) <= tol.

Theorem check_dense_cert_sound G b u tol :
  check_dense_cert G b u tol = true -> dense_holds G b u (D2Q tol).
Proof.
  unfold check_dense_cert.
  intros [[[[H1%Nat.eqb_eq H2%Nat.eqb_eq]%andb_prop H3]%andb_prop H4%dleb_spec]%andb_prop H5]%andb_prop.
  change (0 <= D2Q tol) in H4.
  repeat split; auto. intros j Hj.
  pose proof (all_le_spec _ _ H5 j) as S.
  rewrite dense_resid_length, nth_dense_resid in S by assumption. specialize (S Hj).
  rewrite D2Q_sub, D2Q_ddot in S. exact S.
Qed.

(* UNIQUENESS: if B certifies that G has a bounded (approximate) inverse, any two vectors that
   both satisfy G x = b within tol differ by at most  ||B|| * 2 tol / (1 - delta)  in max norm *)
Theorem contract_unique G B delta beta b u v tol :
  check_inverse_cert G B delta beta = true ->
  dense_holds G b u tol -> dense_holds G b v tol ->
  D2Q (vdist u v) * (1 - D2Q delta) <= D2Q beta * (2 * tol) /\
  forall i, (i < length G)%nat -> Qabs (D2Q (nth i u d0) - D2Q (nth i v d0)) <= D2Q (vdist u v).
Proof.
  intros H [Ub [Uu [Ur [Ht HU]]]] [Vb [Vu [_ [_ HV]]]]. split.
  - apply (inverse_cert_bound G B delta beta (vsub u v) (2 * tol) H); [rewrite vsub_length; lia | lra |].
    (* G (u - v) = (G u - b) - (G v - b) *)
    intros k. unfold dense_apply. change d0 with ((fun r => ddot r (vsub u v)) []) at 1. rewrite map_nth, D2Q_ddot.
    destruct (Nat.lt_ge_cases k (length G)) as [Hk|Hk].
    + rewrite Qddot_vsub by lia. specialize (HU k Hk). specialize (HV k Hk).
      apply Qabs_Qle_condition in HU, HV. apply Qabs_Qle_condition. lra.
    + rewrite nth_overflow by exact Hk. cbn. lra.
  - intros i Hi. rewrite <- D2Q_sub, <- nth_vsub by lia. apply maxabs_ge.
Qed.

Lemma Qddot_update l j a u : (j < length l)%nat ->
  Qddot (firstn j l ++ match skipn j l with [] => [] | x :: tl => dadd a x :: tl end) u
  == Qddot l u + D2Q a * D2Q (nth j u d0).
Proof.
  revert j u. induction l as [|y l IH]; intros j u Hj; [inversion Hj|].
  destruct u as [|z u]; [destruct j; cbn [firstn skipn app Qddot nth]; rewrite D2Q_d0; ring|].
  destruct j as [|j]; cbn [firstn skipn app Qddot nth].
  - rewrite D2Q_add. ring.
  - rewrite IH by (cbn [length] in Hj; lia). ring.
Qed.

Lemma update_length (l : list dy) j a :
  length (firstn j l ++ match skipn j l with [] => [] | x :: tl => dadd a x :: tl end) = length l.
Proof.
  revert j. induction l as [|y l IH]; intros [|j]; cbn [firstn skipn app length]; auto.
Qed.

Lemma dense_row_of_length n r : length (dense_row_of n r) = n.
Proof.
  induction r as [|[j a] r IH]; cbn [dense_row_of]; [apply dzeros_length|]. rewrite update_length. exact IH.
Qed.

Lemma Qddot_dense_row_of n r u :
  forallb (fun '(j, _) => Nat.ltb j n) r = true ->
  Qddot (dense_row_of n r) u == Qrow_dot r u.
Proof.
  induction r as [|[j a] r IH]; intros H; cbn [dense_row_of Qrow_dot]; [apply Qddot_zeros|].
  cbn in H. apply andb_prop in H as [Hj Hr]. apply Nat.ltb_lt in Hj.
  rewrite Qddot_update, IH by (rewrite ?dense_row_of_length; assumption). unfold vget. ring.
Qed.

Lemma Qddot_map_dopp l u : Qddot (map dopp l) u == - Qddot l u.
Proof.
  revert u. induction l as [|x l IH]; intros u; [cbn; ring|].
  destruct u as [|z u]; cbn [map Qddot]; [ring|]. rewrite D2Q_opp, IH. ring.
Qed.

Lemma sub_unit_length c i : length (sub_unit c i) = length c.
Proof. revert i. induction c as [|x c IH]; intros [|i]; cbn; auto. Qed.

(* row i of  I - factor A *)
Lemma Qddot_densify_row n factor i r u : (i < n)%nat ->
  forallb (fun '(j, _) => Nat.ltb j n) r = true ->
  Qddot (vaxpy (dopp factor) (dense_row_of n r) (map dopp (sub_unit (dzeros n) i))) u
  == D2Q (nth i u d0) - D2Q factor * Qrow_dot r u.
Proof.
  intros Hi Hr.
  rewrite Qddot_vaxpy by (rewrite map_length, sub_unit_length, dzeros_length; apply dense_row_of_length).
  rewrite Qddot_dense_row_of, Qddot_map_dopp, Qddot_sub_unit, Qddot_zeros, D2Q_opp
    by (rewrite ?dzeros_length; assumption).
  ring.
Qed.

Lemma densify_rows_length n factor i0 A : length (densify_rows n factor i0 A) = length A.
Proof. revert i0. induction A as [|r A IH]; intros i0; cbn; auto. Qed.

Lemma nth_densify_rows n factor i0 A i : (i < length A)%nat ->
  nth i (densify_rows n factor i0 A) [] =
  vaxpy (dopp factor) (dense_row_of n (nth i A [])) (map dopp (sub_unit (dzeros n) (i0 + i))).
Proof.
  revert i0 i. induction A as [|r A IH]; intros i0 [|i] Hi; cbn [length] in Hi; try lia; cbn [densify_rows nth].
  - rewrite Nat.add_0_r. reflexivity.
  - rewrite IH, Nat.add_succ_r by lia. reflexivity.
Qed.

Lemma densify_rows_have_length n factor i0 A : rows_have_length n (densify_rows n factor i0 A) = true.
Proof.
  revert i0. induction A as [|r A IH]; intros i0; cbn [densify_rows rows_have_length forallb]; [reflexivity|].
  apply andb_true_intro. split; [|apply IH]. apply Nat.eqb_eq.
  rewrite vaxpy_length; rewrite map_length, sub_unit_length, dzeros_length; [reflexivity | apply dense_row_of_length].
Qed.

(* the sparse contract (no masked rows) is the dense system  (I - factor A) u = rhs *)
Theorem contract_to_dense A factor rhs u mask tol :
  cols_below (length A) A = true -> forallb (fun m => m) mask = true -> 0 <= tol ->
  contract_holds A factor rhs u mask tol ->
  dense_holds (densify factor A) rhs u tol.
Proof.
  unfold cols_below. rewrite !forallb_forall. intros Hc Hm Ht [H1 [H2 [H3 H]]].
  unfold dense_holds, densify. rewrite densify_rows_length. repeat split; auto.
  - apply densify_rows_have_length.
  - intros j Hj. rewrite nth_densify_rows, Qddot_densify_row by (try apply Hc, nth_In; exact Hj).
    apply (H j Hj), Hm, nth_In. lia.
Qed.

(* COROLLARY: two outputs accepted by the sparse certificate checker for the same operator,
   factor and right-hand side are pinned together by an inverse certificate of I - factor*A *)
Theorem solve_cert_unique A factor rhs u v mask atol rtol atol' rtol' B delta beta tol :
  check_solve_cert A factor rhs u mask atol rtol = true ->
  check_solve_cert A factor rhs v mask atol' rtol' = true ->
  cols_below (length A) A = true -> forallb (fun m => m) mask = true ->
  check_inverse_cert (densify factor A) B delta beta = true ->
  D2Q (cert_tol A factor rhs u atol rtol) <= tol ->
  D2Q (cert_tol A factor rhs v atol' rtol') <= tol -> 0 <= tol ->
  D2Q (vdist u v) * (1 - D2Q delta) <= D2Q beta * (2 * tol) /\
  forall i, (i < length A)%nat -> Qabs (D2Q (nth i u d0) - D2Q (nth i v d0)) <= D2Q (vdist u v).
Proof.
  intros Hu Hv Hc Hm HB Tu Tv Ht.
  apply check_solve_cert_sound in Hu, Hv.
  pose proof (contract_to_dense _ _ _ _ _ _ Hc Hm Ht (contract_holds_weaken _ _ _ _ _ _ _ Hu Tu)) as Du.
  pose proof (contract_to_dense _ _ _ _ _ _ Hc Hm Ht (contract_holds_weaken _ _ _ _ _ _ _ Hv Tv)) as Dv.
  pose proof (contract_unique _ _ _ _ _ _ _ _ HB Du Dv) as R.
  unfold densify in R. rewrite densify_rows_length in R. exact R.
Qed.
