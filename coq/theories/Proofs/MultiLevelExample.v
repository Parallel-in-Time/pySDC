(* Non-vacuity of C10_multilevel_cycle_fixed_point: a concrete three-level hierarchy over Qc (2, 2 and 1 nodes,
   pure quadrature problem u' = t, identity space transfer, injection-type Rcoll) satisfies hier_ok, and the
   collocation solution of its fine level satisfies holds_solution; the theorem then applies to it. *)
From Coq Require Import List Arith Bool Lia Ring QArith Qcanon.
From PySDC Require Import Model.Sweep Model.Transfer Model.MultiLevel Proofs.SweepProofs Proofs.TransferProofs Proofs.MultiLevelProofs.
Import ListNotations.
Local Open Scope Qc_scope.

Definition exK0 : Qc := Q2Qc 0.
Definition exK1 : Qc := Q2Qc 1.
Definition ex_eqb (a b : Qc) : bool := Qeq_bool a b.
Lemma ex_eqb_true a b : ex_eqb a b = true -> a = b.
Proof. intros H. apply Qc_is_canon. apply Qeq_bool_eq. exact H. Qed.

Definition ex_feval (t : Qc) (_ : unit -> Qc) (_ : nat) : unit -> Qc := fun _ => t.
Definition ex_solve (_ : nat) (rhs : unit -> Qc) (a : Qc) (_ : unit -> Qc) (t : Qc) : unit -> Qc := fun x => rhs x + a * t.
Definition ex_QI (m j : nat) : Qc := if Nat.leb j m then exK1 else exK0.
Definition ex_Q (m j : nat) : Qc := Q2Qc (1 # 2).
Definition ex_nodes (m : nat) : Qc := Q2Qc (Z.of_nat m # 2).
Definition ex_level (M pre post : nat) : @level Qc unit :=
  {| lM := M; ldt := exK1; lnodes := ex_nodes; lQ := ex_Q; lQI := ex_QI; lQE := fun _ _ => exK0; lfeval := ex_feval; lsolve := ex_solve;
     lpre := pre; lpost := post |}.
Definition ex_xfer (fin : bool) : @xfer Qc unit :=
  {| xRs := fun v => v; xPs := fun v => v; xRcoll := fun n m => if Nat.eqb m n then exK1 else exK0;
     xPcoll := fun n m => if Nat.eqb m 1 then exK1 else exK0; xfinter := fin |}.

Definition ex_fine := ex_level 2 0 2.
Definition ex_rest := [(ex_xfer false, ex_level 2 1 1); (ex_xfer true, ex_level 1 1 0)].

Notation LOK := (level_ok exK0 Qcmult Qcminus ex_eqb false).

Lemma ex_level_ok (M pre post : nat) : LOK (ex_level M pre post).
Proof.
  unfold level_ok, ex_level; cbn [lsolve lfeval lQI lM ldt]. split; [|split; [|split]].
  - intros w rhs a ug t H x. unfold ex_solve. rewrite <- (H x). unfold ex_feval. ring.
  - intros t u v _ p x. reflexivity.
  - intros m j Hmj. unfold ex_QI. replace (Nat.leb j m) with false by (symmetry; apply Nat.leb_gt; lia). reflexivity.
  - intros m Hm. left. unfold ex_QI. rewrite Nat.leb_refl. intros H. discriminate H.
Qed.

Lemma ex_xfer_ok fin (Mf Mc pf qf pc qc_ : nat) : (Mc <= Mf)%nat -> 
  xfer_ok exK0 exK1 Qcplus Qcminus (ex_xfer fin) (ex_level Mf pf qf) (ex_level Mc pc qc_).
Proof.
  intros Hle. unfold xfer_ok, ex_xfer; cbn [xRs xPs xRcoll lM ex_level]. split; [|split; [|split; [|split; [|split; [|split]]]]]; try (intros; reflexivity).
  - intros a b H x. apply H.
  - intros a b H x. apply H.
  - intros n Hn.
    (* sum_{m=1..Mf} [m = n]: the first n terms are a unit row, the others vanish *)
    replace Mf with (n + (Mf - n))%nat by lia. rewrite (sumf_split exK0 exK1 Qcplus Qcmult Qcminus Qcopp Qcrt).
    rewrite (sumf_unit_row exK0 exK1 Qcplus Qcmult Qcminus Qcopp Qcrt _ n) by (intros; lia || reflexivity).
    rewrite (sumf_zeros exK0 exK1 Qcplus Qcmult Qcminus Qcopp Qcrt); [unfold exK0, exK1; ring|].
    intros m Hm. destruct (Nat.eqb_spec m n); [lia | reflexivity].
Qed.

Example ex_hier_ok : hier_ok exK0 exK1 Qcplus Qcmult Qcminus ex_eqb false ex_fine ex_rest.
Proof.
  unfold ex_fine, ex_rest. cbn [hier_ok].
  split; [apply ex_level_ok|]. split; [apply ex_xfer_ok; lia|]. split; [apply ex_level_ok|].
  split; [apply ex_xfer_ok; lia|]. split; [apply ex_level_ok|exact I].
Qed.

(* the collocation solution  u_m = u0 + dt * sum_j Q_mj t_j  of u' = t on a two-node step starting at t0 holds the solution *)
Lemma ex_quadrature_holds (t0 u0 : Qc) (pre post : nat) :
  holds_solution exK0 Qcplus Qcmult Qcminus t0 false (ex_level 2 pre post) (fun _ => None)
    (fun m _ => if Nat.eqb m 0 then u0 else u0 + exK1 * sumf exK0 Qcplus (fun j => ex_Q m j * tnode Qcplus Qcmult exK1 t0 ex_nodes j) 1 2,
     fun m _ _ => tnode Qcplus Qcmult exK1 t0 ex_nodes m).
Proof.
  split; [|split].
  - intros m Hm p x. reflexivity.
  - intros m Hm x. cbn [fst snd lM ldt lQ ex_level nparts].
    apply (residual_zero_iff_collocation exK0 exK1 Qcplus Qcmult Qcminus Qcopp Qcrt).
    destruct (Nat.eqb_spec m 0); [lia|]. cbn [Nat.eqb]. unfold tauval, exK0, exK1. ring.
  - intros m Hm. split; intros; reflexivity.
Qed.

(* the fine collocation solution  u_m = u0 + dt * sum_j Q_mj t_j  of u' = t *)
Definition ex_u0 : Qc := Q2Qc 3.
Definition ex_state : @lstate Qc unit :=
  (fun m _ => if Nat.eqb m 0 then ex_u0
              else ex_u0 + exK1 * sumf exK0 Qcplus (fun j => ex_Q m j * tnode Qcplus Qcmult exK1 exK0 ex_nodes j) 1 2,
   fun m _ _ => tnode Qcplus Qcmult exK1 exK0 ex_nodes m).

Example ex_holds : holds_solution exK0 Qcplus Qcmult Qcminus exK0 false ex_fine (fun _ => None) ex_state.
Proof. exact (ex_quadrature_holds exK0 ex_u0 0 2). Qed.

(* the theorem applies: the (nontrivial: 0 + 1 + 1 + 1 + 2 sweeps, two restrictions, two prolongations) cycle
   returns the same fine state *)
Example ex_cycle_fixed :
  same ex_fine (vcycle exK0 Qcplus Qcmult Qcminus ex_eqb exK0 false ex_fine ex_rest (fun _ => None) ex_state) ex_state.
Proof.
  exact (vcycle_fixed_point exK0 exK1 Qcplus Qcmult Qcminus Qcopp ex_eqb Qcrt ex_eqb_true exK0 false ex_rest ex_fine (fun _ => None) ex_state
           ex_hier_ok ex_holds).
Qed.
