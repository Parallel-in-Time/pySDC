(* C18 — the n-D matrices apply the 1-D operator along each axis of a row-major grid function. *)
From Coq Require Import Arith Lia Ring List.
From PySDC Require Import Model.FDnd.

Section FDndProofs.
  Context {K : Type} (kO kI : K) (kadd kmul ksub : K -> K -> K) (kopp : K -> K).
  Hypothesis Rth : ring_theory kO kI kadd kmul ksub kopp (@eq K).
  Add Ring KringFD : Rth.
  Local Infix "+!" := kadd (at level 50, left associativity).
  Local Infix "*!" := kmul (at level 40, left associativity).
  Notation sumn := (sumn kO kadd).
  Notation delta := (delta kO kI).
  Notation kron := (kron kmul).

  Lemma sumn_ext f g n : (forall k, k < n -> f k = g k) -> sumn f n = sumn g n.
  Proof.
    induction n as [|n IH]; intros H; cbn [FDnd.sumn]; [reflexivity|].
    rewrite IH, H by (intros; try apply H; lia). reflexivity.
  Qed.
  Lemma sumn_plus f g n : sumn (fun k => f k +! g k) n = sumn f n +! sumn g n.
  Proof. induction n as [|n IH]; cbn [FDnd.sumn]; [ring|]. rewrite IH. ring. Qed.
  Lemma sumn_scal a f n : sumn (fun k => a *! f k) n = a *! sumn f n.
  Proof. induction n as [|n IH]; cbn [FDnd.sumn]; [ring|]. rewrite IH. ring. Qed.
  Lemma sumn_zero n : sumn (fun _ => kO) n = kO.
  Proof. induction n as [|n IH]; cbn [FDnd.sumn]; [reflexivity|]. rewrite IH. ring. Qed.
  Lemma sumn_app f p q : sumn f (p + q) = sumn f p +! sumn (fun b => f (p + b)) q.
  Proof.
    induction q as [|q IH]; rewrite ?Nat.add_0_r, ?Nat.add_succ_r; cbn [FDnd.sumn]; [|rewrite IH]; ring.
  Qed.
  (* a sum over m*n flat indices is the double sum over (a, b), flat index a*n + b *)
  Lemma sumn_flatten f m n : sumn f (m * n) = sumn (fun a => sumn (fun b => f (a * n + b)) n) m.
  Proof.
    induction m as [|m IH]; cbn [FDnd.sumn Nat.mul]; [reflexivity|].
    rewrite Nat.add_comm, sumn_app, IH. reflexivity.
  Qed.
  Lemma sumn_delta_l j g n : j < n -> sumn (fun b => delta j b *! g b) n = g j.
  Proof.
    induction n as [|n IH]; intros Hj; [lia|]. cbn [FDnd.sumn]. unfold FDnd.delta at 2.
    destruct (Nat.eqb_spec j n) as [->|Hne].
    - rewrite (sumn_ext _ (fun _ => kO)), sumn_zero; [ring|].
      intros b Hb. unfold FDnd.delta. destruct (Nat.eqb_spec n b); [lia | ring].
    - rewrite IH by lia. ring.
  Qed.

  Lemma divmod_flat a b n : b < n -> (a * n + b) / n = a /\ (a * n + b) mod n = b.
  Proof.
    intros Hb. rewrite Nat.add_comm, Nat.div_add, Nat.mod_add, Nat.div_small, Nat.mod_small by lia. split; reflexivity.
  Qed.

  (* Kronecker PRODUCT of two (rectangular) matrices acts per axis: A (ma x na) on the first index, B (nbr x nbc) on the second *)
  Theorem kron_rect_apply nbr nbc na (A B : nat -> nat -> K) (u : nat -> nat -> K) i j :
    j < nbr ->
    sumn (fun c => kron_rect kmul nbr nbc A B (i * nbr + j) c *! u (c / nbc) (c mod nbc)) (na * nbc)
    = sumn (fun a => A i a *! sumn (fun b => B j b *! u a b) nbc) na.
  Proof.
    intros Hj. rewrite sumn_flatten. unfold kron_rect. destruct (divmod_flat i j nbr Hj) as [-> ->].
    apply sumn_ext. intros a Ha. rewrite <- sumn_scal. apply sumn_ext. intros b Hb.
    destruct (divmod_flat a b nbc Hb) as [-> ->]. ring.
  Qed.

  (* sp.kron with a square second factor is the case nbr = nbc of kron_rect *)
  Lemma kron_apply nb na (A B : nat -> nat -> K) (u : nat -> nat -> K) i j : j < nb ->
    sumn (fun c => kron nb A B (i * nb + j) c *! u (c / nb) (c mod nb)) (na * nb)
    = sumn (fun a => A i a *! sumn (fun b => B j b *! u a b) nb) na.
  Proof. exact (kron_rect_apply nb nb na A B u i j). Qed.

  (* with the identity as one of the factors, the other index is left alone *)
  Lemma kron_delta_r n na A (u : nat -> nat -> K) i j : j < n ->
    sumn (fun c => kron n A delta (i * n + j) c *! u (c / n) (c mod n)) (na * n) = sumn (fun a => A i a *! u a j) na.
  Proof.
    intros Hj. rewrite kron_apply by exact Hj.
    apply sumn_ext. intros a _. rewrite sumn_delta_l by exact Hj. reflexivity.
  Qed.
  Lemma kron_delta_l n na B (u : nat -> nat -> K) i j : i < na -> j < n ->
    sumn (fun c => kron n delta B (i * n + j) c *! u (c / n) (c mod n)) (na * n) = sumn (fun b => B j b *! u i b) n.
  Proof.
    intros Hi Hj. rewrite kron_apply by exact Hj.
    apply (sumn_delta_l i (fun a => sumn (fun b => B j b *! u a b) n)), Hi.
  Qed.

  (* 2-D: row (i, j), grid function u(a, b) stored row-major *)
  Theorem fd2_apply n (A : nat -> nat -> K) (u : nat -> nat -> K) i j :
    i < n -> j < n ->
    sumn (fun c => fd2_entry kO kI kadd kmul n A (i * n + j) c *! u (c / n) (c mod n)) (n * n)
    = sumn (fun k => A i k *! u k j) n +! sumn (fun k => A j k *! u i k) n.
  Proof.
    intros Hi Hj. unfold fd2_entry.
    erewrite sumn_ext by (intros; apply (Rdistr_l Rth)).
    rewrite sumn_plus, kron_delta_r, kron_delta_l by assumption. reflexivity.
  Qed.

  (* digits of a flat index c < n^3 in base n: the middle and the last one are those of c mod n^2 *)
  Lemma mod_sq_digits c n : 0 < n -> (c mod (n * n)) / n = (c / n) mod n /\ (c mod (n * n)) mod n = c mod n.
  Proof.
    intros Hn. rewrite (Nat.mod_mul_r c n n), (Nat.mul_comm n) by lia.
    rewrite Nat.div_add, Nat.mod_add, Nat.div_small, Nat.mod_mod by (try apply Nat.mod_upper_bound; lia).
    split; reflexivity.
  Qed.

  (* 3-D: row (i, j, l), grid function u(a, b, d) stored row-major: the three Kronecker terms act on the first, the last and
     the middle index respectively *)
  Theorem fd3_apply n (A : nat -> nat -> K) (u : nat -> nat -> nat -> K) i j l :
    i < n -> j < n -> l < n ->
    sumn (fun c => fd3_entry kO kI kadd kmul n A ((i * n + j) * n + l) c *! u (c / (n * n)) ((c / n) mod n) (c mod n)) (n * n * n)
    = sumn (fun k => A i k *! u k j l) n +! sumn (fun k => A l k *! u i j k) n +! sumn (fun k => A j k *! u i k l) n.
  Proof.
    intros Hi Hj Hl. unfold fd3_entry.
    erewrite sumn_ext by (intros; rewrite (Rdistr_l Rth), (Rdistr_l Rth); reflexivity).
    rewrite !sumn_plus. f_equal; [f_equal|].
    - (* A (x) I_(n^2): the grid function with its last two indices flattened *)
      replace ((i * n + j) * n + l) with (i * (n * n) + (j * n + l)) by ring. rewrite <- Nat.mul_assoc.
      rewrite (sumn_ext _ (fun c => kron (n * n) A delta (i * (n * n) + (j * n + l)) c
                                    *! (fun a bd => u a (bd / n) (bd mod n)) (c / (n * n)) (c mod (n * n)))).
      + rewrite (kron_delta_r (n * n) n A (fun a bd => u a (bd / n) (bd mod n)) i (j * n + l)) by nia.
        destruct (divmod_flat j l n Hl) as [-> ->]. reflexivity.
      + intros c _. destruct (mod_sq_digits c n) as [-> ->]; [lia | reflexivity].
    - (* I_(n^2) (x) A: the first two indices flattened *)
      rewrite (sumn_ext _ (fun c => kron n delta A ((i * n + j) * n + l) c
                                    *! (fun ab d => u (ab / n) (ab mod n) d) (c / n) (c mod n)))
        by (intros; rewrite Nat.div_div by lia; reflexivity).
      rewrite (kron_delta_l n (n * n) A (fun ab d => u (ab / n) (ab mod n) d) (i * n + j) l) by (assumption || nia).
      destruct (divmod_flat i j n Hj) as [-> ->]. reflexivity.
    - (* (I (x) A) (x) I: first the last index, then the remaining two *)
      rewrite (sumn_ext _ (fun c => kron n (kron n delta A) delta ((i * n + j) * n + l) c
                                    *! (fun ab d => u (ab / n) (ab mod n) d) (c / n) (c mod n)))
        by (intros; rewrite Nat.div_div by lia; reflexivity).
      rewrite (kron_delta_r n (n * n) (kron n delta A) (fun ab d => u (ab / n) (ab mod n) d) (i * n + j) l Hl).
      apply (kron_delta_l n n A (fun a b => u a b l)); assumption.
  Qed.
End FDndProofs.
