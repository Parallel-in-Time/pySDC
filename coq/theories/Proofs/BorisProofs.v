(* C02 (extension) — proofs about Model/Boris.v (boris_2nd_order sweeper).  K is an arbitrary commutative ring,
   the problem interface (eval_f, build_f, boris_solver) consists of arbitrary functions; the velocity theorem
   assumes the Boris solver contract (the equation PenningTrap_3D.boris_solver solves, see boris_contract). *)
From Coq Require Import List Arith Bool Lia Ring.
From PySDC Require Import Model.Sweep Model.Boris Proofs.SweepProofs.
Import ListNotations.

Section BorisProofs.
  Context {K : Type} (kO kI : K) (kadd kmul ksub : K -> K -> K) (kopp : K -> K).
  Hypothesis Rth : ring_theory kO kI kadd kmul ksub kopp (@eq K).
  Add Ring KringB : Rth.
  Context {X : Type}.
  Notation V := (X -> K).
  Context {Fld A : Type}.
  Local Infix "+!" := kadd (at level 50, left associativity).
  Local Infix "*!" := kmul (at level 40, left associativity).
  Local Infix "-!" := ksub (at level 50, left associativity).
  Variable M : nat.
  Variable dt t0 : K.
  Variable nodes delta : nat -> K.
  Variable Q QQ Sm ST SQ Sx : nat -> nat -> K.
  Variable QId : nat -> K.
  Variable bf : K -> Fld -> V -> V -> A -> V.
  Variable ef : K -> V -> V -> A -> Fld.
  Variable bs : V -> K -> Fld -> Fld -> V -> V -> A -> V.
  Variable attr : nat -> A.

  Notation tn := (tnode kadd kmul dt t0 nodes).
  Notation sumf := (sumf kO kadd).
  Notation bloop := (boris_loop kadd kmul M dt t0 nodes delta Sx QId bf ef bs attr).
  Notation Fof := (bforce kadd kmul M dt t0 nodes bf attr).
  Notation bupdate := (boris_update kO kadd kmul ksub M dt t0 nodes delta Sm ST SQ Sx QId bf ef bs attr).
  Notation gpos := (bgather_pos kO kadd kmul ksub M dt t0 nodes SQ Sx bf attr).
  Notation gvel := (bgather_vel kO kadd kmul ksub M dt t0 nodes Sm ST bf attr).
  Notation accum_spec := (accum_spec kO kI kadd kmul ksub kopp Rth).
  Notation sumf_snoc := (sumf_snoc kO kI kadd kmul ksub kopp Rth).
  Notation sumf_lin := (sumf_lin kO kI kadd kmul ksub kopp Rth).
  Notation rearrange := (rearrange kO kI kadd kmul ksub kopp Rth).
  Notation sumf_rows := (sumf_rows kO kI kadd kmul ksub kopp Rth).
  Notation sumf_trunc := (sumf_trunc kO kI kadd kmul ksub kopp Rth).
  Notation sumf_vanish := (sumf_vanish kO kI kadd kmul ksub kopp Rth).
  Notation sumf_add := (sumf_add kO kI kadd kmul ksub kopp Rth).
  Notation sumf_scal := (sumf_scal kO kI kadd kmul ksub kopp Rth).
  Notation sumf_scal_l := (sumf_scal_l kO kI kadd kmul ksub kopp Rth).
  Notation pos_quad_spec := (pos_quad_spec kO kI kadd kmul ksub kopp Rth).
  Notation vel_quad_spec := (vel_quad_spec kO kI kadd kmul ksub kopp Rth).

  (* node m as view_loop_spec sees it, and what the loop writes there, given the state s below m and the node's old value o *)
  Definition bview (s : (nat -> V) * (nat -> V) * (nat -> Fld)) (j : nat) : V * V * Fld := (fst (fst s) j, snd (fst s) j, snd s j).
  Definition bnode (gp gv : nat -> V) (s : (nat -> V) * (nat -> V) * (nat -> Fld)) (o : V * V * Fld) (m : nat) : V * V * Fld :=
    let pn := fst (fst s) in let vn := snd (fst s) in let fn := snd s in
    let pm := vadd kadd (accum kadd (gp m) 0 m (fun j => vscale kmul (dt *! (dt *! Sx m j)) (Fof pn vn fn j)))
                   (vadd kadd (pn (m - 1)) (vscale kmul (dt *! delta m) (vn 0))) in
    let fm := ef (tn m) pm (snd (fst o)) (attr m) in
    (pm, bs (gv m) (dt *! QId m) (fn (m - 1)) fm (pn (m - 1)) (vn (m - 1)) (attr (m - 1)), fm).

  (* Law-free characterisation of the node loop (holds for any operations, e.g. floats): nodes outside the processed
     range are untouched; every processed node m holds
       pos_m  = gp m + sum_{j<m} dt(dt Sx[m,j]) F_j + (pos_{m-1} + dt delta_m v_0)      with the FINAL values of the nodes before m,
       fld_m  = eval_f(t_m, pos_m, OLD vel_m),
       vel_m  = boris_solver(gv m, dt QI[m,m], fld_{m-1}, fld_m, particle m-1). *)
  Lemma boris_loop_spec (gp gv : nat -> V) n k (p' v' : nat -> V) (f' : nat -> Fld) :
    1 <= k ->
    let r := bloop gp gv (seq k n) (p', v', f') in
    let pn := fst (fst r) in let vn := snd (fst r) in let fn := snd r in
    (forall j, j < k \/ k + n <= j -> pn j = p' j /\ vn j = v' j /\ fn j = f' j) /\
    (forall m, k <= m < k + n ->
       pn m = vadd kadd (accum kadd (gp m) 0 m (fun j => vscale kmul (dt *! (dt *! Sx m j)) (Fof pn vn fn j)))
                        (vadd kadd (pn (m - 1)) (vscale kmul (dt *! delta m) (v' 0))) /\
       fn m = ef (tn m) (pn m) (v' m) (attr m) /\
       vn m = bs (gv m) (dt *! QId m) (fn (m - 1)) (fn m) (pn (m - 1)) (vn (m - 1)) (attr (m - 1))).
  Proof.
    intros Hk.
    destruct (view_loop_spec bview (fun s m => bloop gp gv [m] s) (bloop gp gv) (bnode gp gv) 1)
      with (n := n) (k := k) (s := (p', v', f')) as [Sf Sn].
    - reflexivity.
    - intros m ms [[p1 v1] f1]. reflexivity.
    - intros [[p1 v1] f1] m j _ H. unfold bview. cbn [boris_loop fst snd]. rewrite !upd_other by exact H. reflexivity.
    - intros [[p1 v1] f1] m _. unfold bview. cbn [boris_loop fst snd]. rewrite !upd_same. reflexivity.
    - intros [[p1 v1] f1] [[p2 v2] f2] o m Hm H. unfold bnode, bview in *. cbn [fst snd] in *.
      injection (H (m - 1) ltac:(lia)) as -> -> ->. injection (H 0 ltac:(lia)) as _ -> _.
      rewrite (accum_ext kadd _ 0 m _ (fun j => vscale kmul (dt *! (dt *! Sx m j)) (Fof p2 v2 f2 j))); [reflexivity|].
      intros j Hj. unfold bforce. injection (H j (proj2 Hj)) as -> -> ->. reflexivity.
    - exact Hk.
    - cbv zeta. split.
      + intros j Hj. injection (Sf j Hj) as Ep Ev Ef. auto.
      + intros m Hm. injection (Sn m Hm) as Ep Ev Ef. cbn [bview fst snd] in Ef, Ev.
        injection (Sf 0 ltac:(lia)) as _ E0 _. rewrite E0 in Ep, Ef, Ev.
        split; [exact Ep|]. split; [rewrite Ef, <- Ep | rewrite Ev, <- Ef]; reflexivity.
  Qed.

  (* the value the gather loop adds for node m: tau[m] - tau[m-1] (m > 1), tau[1], or nothing *)
  Definition tauN (sel : V * V -> V) (tau : nat -> option (V * V)) (m : nat) (x : X) : K :=
    match tau m with
    | None => kO
    | Some t => if Nat.leb m 1 then sel t x
                else match tau (m - 1) with Some t' => sel t x -! sel t' x | None => sel t x end
    end.
  Definition tauV (sel : V * V -> V) (tau : nat -> option (V * V)) (m : nat) (x : X) : K :=
    match tau m with Some t => sel t x | None => kO end.

  Lemma add_tau_spec sel tau m (g : V) x :
    add_tau kadd ksub sel tau m g x = g x +! tauN sel tau m x.
  Proof.
    unfold add_tau, tauN. destruct (tau m) as [t|]; [|ring].
    destruct (Nat.leb m 1); [reflexivity|]. destruct (tau (m - 1)) as [t'|]; unfold vadd, vsub; [ring|reflexivity].
  Qed.

  Lemma gpos_spec (p v : nat -> V) (f : nat -> Fld) tau m x :
    gpos p v f tau m x = dt *! dt *! sumf (fun j => (SQ m j -! Sx m j) *! Fof p v f j x) 0 (S M) +! tauN fst tau m x.
  Proof.
    unfold bgather_pos. rewrite add_tau_spec, accum_spec. unfold vzero, vscale.
    rewrite (sumf_lin (dt *! dt) (fun j => SQ m j -! Sx m j) (fun j => Fof p v f j x)) by (intros; ring). ring.
  Qed.

  Lemma gvel_spec (p v : nat -> V) (f : nat -> Fld) tau m x :
    gvel p v f tau m x = dt *! sumf (fun j => (Sm m j -! ST m j) *! Fof p v f j x) 0 (S M) +! tauN snd tau m x.
  Proof.
    unfold bgather_vel. rewrite add_tau_spec, accum_spec. unfold vzero, vscale.
    rewrite (sumf_lin dt (fun j => Sm m j -! ST m j) (fun j => Fof p v f j x)) by (intros; ring). ring.
  Qed.

  (* the exception path: tau[m] present but tau[m-1] missing -> the gather loop raises, nothing is changed *)
  Theorem boris_update_raises p v f tau : tau_ok M tau = false -> bupdate p v f tau = None.
  Proof. intros H. unfold boris_update. rewrite H. reflexivity. Qed.

  (* boris_2nd_order.update_nodes, node-to-node position form + frame + what the stored fields and velocities are;
     no assumption on the problem at all *)
  Theorem boris_position_form (p v : nat -> V) (f : nat -> Fld) tau :
    tau_ok M tau = true ->
    exists r, bupdate p v f tau = Some r /\
    let pn := fst (fst r) in let vn := snd (fst r) in let fn := snd r in
    (forall j, j = 0 \/ M < j -> pn j = p j /\ vn j = v j /\ fn j = f j) /\
    forall m, 1 <= m <= M ->
      fn m = ef (tn m) (pn m) (v m) (attr m) /\
      vn m = bs (gvel p v f tau m) (dt *! QId m) (fn (m - 1)) (fn m) (pn (m - 1)) (vn (m - 1)) (attr (m - 1)) /\
      forall x,
        pn m x -! pn (m - 1) x -! dt *! dt *! sumf (fun j => Sx m j *! Fof pn vn fn j x) 0 m
        = dt *! delta m *! v 0 x
          +! dt *! dt *! sumf (fun j => (SQ m j -! Sx m j) *! Fof p v f j x) 0 (S M) +! tauN fst tau m x.
  Proof.
    intros Hok. unfold boris_update. rewrite Hok. eexists. split; [reflexivity|].
    destruct (boris_loop_spec (gpos p v f tau) (gvel p v f tau) M 1 p v f (le_n 1)) as [Sf Sn].
    cbv zeta. set (r := bloop (gpos p v f tau) (gvel p v f tau) (seq 1 M) (p, v, f)) in *.
    split; [intros j Hj; apply Sf; lia|].
    intros m Hm. destruct (Sn m ltac:(lia)) as [Ep [Ef Ev]].
    split; [exact Ef|]. split; [exact Ev|]. intros x.
    rewrite Ep. unfold vadd at 1 2. rewrite accum_spec, gpos_spec. unfold vscale.
    rewrite (sumf_lin (dt *! dt) (Sx m) (fun j => Fof (fst (fst r)) (snd (fst r)) (snd r) j x) _ 0 m) by (intros; ring). ring.
  Qed.

  (* PenningTrap_3D.boris_solver(c, a, old_fields, new_fields, old_parts) returns the velocity v with
         v = v_old + c + a/2 * ( G(old_fields, v_old) + G(new_fields, v) ),      G(fld, vel) = q/m (E + vel x B)
     (q, m those of old_parts): the trapezoidal rule, implicit in v through the magnetic force, solved exactly by the
     Boris rotation.  khalf is the constant 1/2 of the code (dt / 2 * ..., 0.5 * (E_old + E_new)). *)
  Variable khalf : K.
  Variable G : Fld -> V -> A -> V.
  Definition boris_contract : Prop :=
    forall c a fo fn po vo ao x,
      bs c a fo fn po vo ao x
      = vo x +! c x +! a *! khalf *! (G fo vo ao x +! G fn (bs c a fo fn po vo ao) ao x).
  (* build_f assembles exactly that force (it ignores time and position, as PenningTrap_3D.build_f does) *)
  Definition build_f_is (G : Fld -> V -> A -> V) : Prop := forall t fl po ve a, bf t fl po ve a = G fl ve a.

  (* boris_2nd_order.update_nodes: position / velocity node-to-node block form, for every M, tables, data, tau *)
  Theorem boris_block_form (p v : nat -> V) (f : nat -> Fld) tau :
    boris_contract -> build_f_is G -> (forall j, attr j = attr 0) ->
    tau_ok M tau = true ->
    exists r, bupdate p v f tau = Some r /\
    let pn := fst (fst r) in let vn := snd (fst r) in let fn := snd r in
    (forall j, j = 0 \/ M < j -> pn j = p j /\ vn j = v j /\ fn j = f j) /\
    forall m, 1 <= m <= M ->
      fn m = ef (tn m) (pn m) (v m) (attr m) /\
      forall x,
        pn m x -! pn (m - 1) x -! dt *! dt *! sumf (fun j => Sx m j *! Fof pn vn fn j x) 0 m
        = dt *! delta m *! v 0 x
          +! dt *! dt *! sumf (fun j => (SQ m j -! Sx m j) *! Fof p v f j x) 0 (S M) +! tauN fst tau m x
        /\
        vn m x -! vn (m - 1) x -! dt *! QId m *! khalf *! (Fof pn vn fn (m - 1) x +! Fof pn vn fn m x)
        = dt *! sumf (fun j => (Sm m j -! ST m j) *! Fof p v f j x) 0 (S M) +! tauN snd tau m x.
  Proof.
    intros Hc Hb Ha Hok. destruct (boris_position_form p v f tau Hok) as [r [Er H]].
    exists r. split; [exact Er|]. cbv zeta in H |- *. destruct H as [Hf Hn]. split; [exact Hf|].
    intros m Hm. destruct (Hn m Hm) as [Ef [Ev Hp]]. split; [exact Ef|]. intros x. split; [apply Hp|].
    pose proof (Hc (gvel p v f tau m) (dt *! QId m) (snd r (m - 1)) (snd r m) (fst (fst r) (m - 1)) (snd (fst r) (m - 1))
                   (attr (m - 1)) x) as C.
    rewrite <- Ev in C. rewrite C. rewrite gvel_spec. unfold bforce. rewrite !Hb.
    rewrite (Ha (m - 1)), (Ha m). ring.
  Qed.

  Variable weights qQ : nat -> K.
  Notation ipos := (bint_pos kO kadd kmul M dt t0 nodes Q QQ bf attr).
  Notation ivel := (bint_vel kO kadd kmul M dt t0 nodes Q bf attr).

  (* integrate(): pos part dt^2 QQ F + dt (sum_j Q[m,j]) v0, vel part dt Q F *)
  Theorem boris_integrate_form (p v : nat -> V) (f : nat -> Fld) m x :
    ipos p v f m x = dt *! dt *! sumf (fun j => QQ m j *! Fof p v f j x) 1 M +! dt *! sumf (fun j => Q m j) 1 M *! v 0 x /\
    ivel p v f m x = dt *! sumf (fun j => Q m j *! Fof p v f j x) 1 M.
  Proof.
    unfold bint_pos, bint_vel. rewrite pos_quad_spec, vel_quad_spec. unfold vzero.
    change (sumf (fun j => Q m j) 1 M) with (sumf (Q m) 1 M). split; ring.
  Qed.

  (* compute_end_point(): always  x0 + dt (sum w) v0 + dt^2 sum_m qQ_m F_m (+ tau[-1]),  v0 + dt sum_m w_m F_m (+ tau[-1]) *)
  Theorem boris_end_point_form (p v : nat -> V) (f : nat -> Fld) tau :
    let e := boris_end_point kadd kmul M dt t0 nodes bf attr weights qQ p v f tau in
    forall x,
      fst e x = p 0 x +! dt *! sumf weights 1 M *! v 0 x +! dt *! dt *! sumf (fun m => qQ m *! Fof p v f m x) 1 M +! tauV fst tau M x /\
      snd e x = v 0 x +! dt *! sumf (fun m => weights m *! Fof p v f m x) 1 M +! tauV snd tau M x.
  Proof.
    intros e x. unfold e, boris_end_point, tauV.
    destruct (tau M) as [t|]; cbn [fst snd]; [unfold vadd at 1 3|]; rewrite pos_quad_spec, vel_quad_spec; split; ring.
  Qed.

  (* Sweeper.compute_residual() with this integrate(): the defect of the second-order collocation equations *)
  Theorem boris_residual_form (p v : nat -> V) (f : nat -> Fld) tau m x :
    let r := boris_residual kO kadd kmul ksub M dt t0 nodes Q QQ bf attr p v f tau m in
    fst r x = p 0 x +! dt *! sumf (fun j => Q m j) 1 M *! v 0 x +! dt *! dt *! sumf (fun j => QQ m j *! Fof p v f j x) 1 M
              +! tauV fst tau m x -! p m x /\
    snd r x = v 0 x +! dt *! sumf (fun j => Q m j *! Fof p v f j x) 1 M +! tauV snd tau m x -! v m x.
  Proof.
    intros r. unfold r, boris_residual, tauV. destruct (boris_integrate_form p v f m x) as [Ip Iv].
    destruct (tau m) as [t|]; cbn [fst snd]; unfold vadd, vsub; rewrite Ip, Iv; split; ring.
  Qed.

  (* Node-to-node equations whose tables Sa, Sb are the row differences of 0-to-node tables Qa, Qb add up to the 0-to-node
     equations.  y: the unknowns; g, h: new and old forces; e: what telescopes by itself; tN, T: node-to-node and
     0-to-node tau. *)
  Lemma node_to_node_sums (c : K) (Qa Sa Qb Sb : nat -> nat -> K) (y g h e tN T : nat -> K) N :
    (forall m j, 1 <= m <= M -> Sa m j = Qa m j -! Qa (m - 1) j) ->
    (forall m j, 1 <= m <= M -> Sb m j = Qb m j -! Qb (m - 1) j) ->
    (forall j, Qa 0 j = kO) -> (forall j, Qb 0 j = kO) -> e 0 = kO -> T 0 = kO ->
    (forall m, 1 <= m <= M -> T (m - 1) +! tN m = T m) ->
    (forall m, 1 <= m <= M ->
       y m -! y (m - 1) -! c *! sumf (fun j => Sa m j *! g j) 0 N
       = e m -! e (m - 1) +! c *! sumf (fun j => Sb m j *! h j) 0 N +! tN m) ->
    forall m, m <= M ->
      y m -! c *! sumf (fun j => Qa m j *! g j) 0 N = y 0 +! e m +! c *! sumf (fun j => Qb m j *! h j) 0 N +! T m.
  Proof.
    intros HSa HSb HQa HQb He HT Htel Hstep. induction m as [|m IH]; intros Hm.
    - rewrite (sumf_vanish (Qa 0) g 0 N), (sumf_vanish (Qb 0) h 0 N), He, HT by auto. ring.
    - assert (Hm' : 1 <= S m <= M) by lia.
      specialize (HSa (S m)). specialize (HSb (S m)). specialize (Htel (S m) Hm'). specialize (Hstep (S m) Hm').
      replace (S m - 1) with m in * by lia.
      rewrite (sumf_rows (Qa (S m)) (Sa (S m)) (Qa m) g), (sumf_rows (Qb (S m)) (Sb (S m)) (Qb m) h), <- Htel by auto.
      apply rearrange with (1 := Hstep). apply rearrange with (1 := IH ltac:(lia)). ring.
  Qed.

  (* With the tables as boris_2nd_order.__get_Qd builds them for QI = IE, QE = EE
       Sx, ST, S, SQ = row differences of Qx, QT, Q, QQ   (SQ = S Q and QQ = Q Q give the last one),
       Qx strictly lower triangular, QT lower triangular, first rows zero,
       ST rows = the trapezoidal rule  dt QI[m,m]/2 (F_{m-1} + F_m)  hard-wired in the velocity update,
       delta = node distances,
     and tau present on all nodes or on none, the node-to-node equations add up to the second-order analogue of
     (I - dt QD F) U_new = u0 + dt (Q - QD) F U_old + tau:
       x_m - dt^2 sum_{j<m}  Qx[m,j] F_j^new = x_0 + dt t_m v_0 + dt^2 sum_j (QQ - Qx)[m,j] F_j^old + tau_m
       v_m - dt   sum_{j<=m} QT[m,j] F_j^new = v_0             + dt   sum_j (Q  - QT)[m,j] F_j^old + tau_m
     (the table hypotheses are checked on the real tables by the harness on every run). *)
  Section ZeroToNode.
    Variable Qx QT : nat -> nat -> K.
    Hypothesis HSx : forall m j, 1 <= m <= M -> Sx m j = Qx m j -! Qx (m - 1) j.
    Hypothesis HSQ : forall m j, 1 <= m <= M -> SQ m j = QQ m j -! QQ (m - 1) j.
    Hypothesis HSm : forall m j, 1 <= m <= M -> Sm m j = Q m j -! Q (m - 1) j.
    Hypothesis HST : forall m j, 1 <= m <= M -> ST m j = QT m j -! QT (m - 1) j.
    Hypothesis Hrow0 : forall j, Qx 0 j = kO /\ QQ 0 j = kO /\ Q 0 j = kO /\ QT 0 j = kO.
    Hypothesis HQxlow : strictly_lower_triangular kO Qx.
    Hypothesis HQTlow : lower_triangular kO QT.
    Hypothesis Htrap : forall m, 1 <= m <= M ->
      ST m (m - 1) = QId m *! khalf /\ ST m m = QId m *! khalf /\ forall j, j + 1 < m -> ST m j = kO.
    Hypothesis Hdelta : forall m, 1 <= m <= M -> delta m = nodes m -! nodes (m - 1).
    Hypothesis Hnodes0 : nodes 0 = kO.

    Definition tau_full (tau : nat -> option (V * V)) : Prop :=
      (forall m, 1 <= m <= M -> tau m <> None) \/ (forall m, 1 <= m <= M -> tau m = None).

    Lemma tau_full_ok tau : tau_full tau -> tau_ok M tau = true.
    Proof.
      intros Hf. unfold tau_ok. apply forallb_forall. intros m Hm. apply in_seq in Hm.
      destruct Hf as [Hs|Hn].
      - pose proof (Hs (m - 1) ltac:(lia)) as H1. destruct (tau m); [|reflexivity].
        destruct (tau (m - 1)); [reflexivity|congruence].
      - rewrite (Hn m ltac:(lia)). reflexivity.
    Qed.

    Let T (sel : V * V -> V) (tau : nat -> option (V * V)) (m : nat) (x : X) : K :=
      if Nat.eqb m 0 then kO else tauV sel tau m x.

    Lemma tau_telescope sel tau x : tau_full tau -> forall m, 1 <= m <= M ->
      T sel tau (m - 1) x +! tauN sel tau m x = T sel tau m x.
    Proof.
      intros Hf m Hm. unfold T, tauN, tauV. destruct m as [|[|m]]; [lia | |]; cbn [Nat.eqb Nat.leb Nat.sub].
      - destruct (tau 1); ring.
      - destruct Hf as [Hs|Hn].
        + pose proof (Hs (S m) ltac:(lia)) as H1. pose proof (Hs (S (S m)) ltac:(lia)) as H2.
          destruct (tau (S (S m))) as [t|]; destruct (tau (S m)) as [t'|]; try congruence; ring.
        + rewrite (Hn (S m)), (Hn (S (S m))) by lia. ring.
    Qed.

    Theorem boris_matrix_form (p v : nat -> V) (f : nat -> Fld) tau :
      boris_contract -> build_f_is G -> (forall j, attr j = attr 0) -> tau_full tau ->
      exists r, bupdate p v f tau = Some r /\
      let pn := fst (fst r) in let vn := snd (fst r) in let fn := snd r in
      (forall j, j = 0 \/ M < j -> pn j = p j /\ vn j = v j /\ fn j = f j) /\
      forall m, 1 <= m <= M ->
        fn m = ef (tn m) (pn m) (v m) (attr m) /\
        forall x,
          pn m x -! dt *! dt *! sumf (fun j => Qx m j *! Fof pn vn fn j x) 0 m
          = p 0 x +! dt *! nodes m *! v 0 x
            +! dt *! dt *! sumf (fun j => (QQ m j -! Qx m j) *! Fof p v f j x) 0 (S M) +! tauV fst tau m x
          /\
          vn m x -! dt *! sumf (fun j => QT m j *! Fof pn vn fn j x) 0 (S m)
          = v 0 x +! dt *! sumf (fun j => (Q m j -! QT m j) *! Fof p v f j x) 0 (S M) +! tauV snd tau m x.
    Proof.
      intros Hc Hb Ha Hfull.
      destruct (boris_block_form p v f tau Hc Hb Ha (tau_full_ok tau Hfull)) as [r [Er H]].
      exists r. split; [exact Er|]. cbv zeta in H |- *. destruct H as [Hf Hn]. split; [exact Hf|].
      set (pn := fst (fst r)) in *. set (vn := snd (fst r)) in *. set (fn := snd r) in *.
      intros m Hm. split; [apply Hn, Hm|]. intros x.
      destruct (Hf 0 (or_introl eq_refl)) as [Ep0 [Ev0 _]].
      assert (Tm : forall sel, T sel tau m x = tauV sel tau m x).
      { intros sel. unfold T. destruct (Nat.eqb_spec m 0); [lia|reflexivity]. }
      split.
      - (* positions: tables Qx / Sx for the new forces, QQ - Qx / SQ - Sx for the old ones, e_m = dt t_m v_0 *)
        rewrite <- Ep0, <- Tm, <- (sumf_trunc (Qx m) (fun j => Fof pn vn fn j x) 0 m (S M)) by (try lia; intros; apply HQxlow; lia).
        apply (node_to_node_sums (dt *! dt) Qx Sx (fun m j => QQ m j -! Qx m j) (fun m j => SQ m j -! Sx m j)
                 (fun m => pn m x) (fun j => Fof pn vn fn j x) (fun j => Fof p v f j x) (fun m => dt *! nodes m *! v 0 x)
                 (fun m => tauN fst tau m x) (fun m => T fst tau m x) (S M));
          [exact HSx | | intros j; apply Hrow0 | | rewrite Hnodes0; ring | reflexivity | apply tau_telescope, Hfull | | lia].
        + intros k j Hk. rewrite HSQ, HSx by exact Hk. ring.
        + intros j. destruct (Hrow0 j) as [-> [-> _]]. ring.
        + intros k Hk. destruct (Hn k Hk) as [_ Hx]. destruct (Hx x) as [Np _].
          rewrite (sumf_trunc (Sx k) (fun j => Fof pn vn fn j x) 0 k (S M))
            by (try lia; intros j Hj; rewrite HSx, !HQxlow by lia; ring).
          rewrite Np, (Hdelta k Hk). ring.
      - (* velocities: tables QT / ST and Q - QT / Sm - ST, nothing else telescopes *)
        rewrite <- Ev0, <- Tm, <- (sumf_trunc (QT m) (fun j => Fof pn vn fn j x) 0 (S m) (S M)) by (try lia; intros; apply HQTlow; lia).
        transitivity (vn 0 x +! kO +! dt *! sumf (fun j => (Q m j -! QT m j) *! Fof p v f j x) 0 (S M) +! T snd tau m x); [|ring].
        apply (node_to_node_sums dt QT ST (fun m j => Q m j -! QT m j) (fun m j => Sm m j -! ST m j)
                 (fun m => vn m x) (fun j => Fof pn vn fn j x) (fun j => Fof p v f j x) (fun _ => kO)
                 (fun m => tauN snd tau m x) (fun m => T snd tau m x) (S M));
          [exact HST | | intros j; apply Hrow0 | | reflexivity | reflexivity | apply tau_telescope, Hfull | | lia].
        + intros k j Hk. rewrite HSm, HST by exact Hk. ring.
        + intros j. destruct (Hrow0 j) as [_ [_ [-> ->]]]. ring.
        + intros k Hk. destruct (Hn k Hk) as [_ Hx]. destruct (Hx x) as [_ Nv].
          destruct (Htrap k Hk) as [T1 [T2 T3]].
          (* the row ST[k] is the trapezoidal rule: two entries, at k - 1 and k *)
          rewrite (sumf_trunc (ST k) (fun j => Fof pn vn fn j x) 0 (S k) (S M))
            by (try lia; intros j Hj; rewrite HST, !HQTlow by lia; ring).
          replace (S k) with (S (S (k - 1))) at 1 by lia. rewrite (sumf_snoc _ 0 (S (k - 1))), (sumf_snoc _ 0 (k - 1)). cbn [Nat.add].
          replace (S (k - 1)) with k by lia.
          rewrite (sumf_vanish (ST k) (fun j => Fof pn vn fn j x) 0 (k - 1)), T1, T2 by (intros; apply T3; lia).
          apply rearrange with (1 := Nv). ring.
    Qed.
  End ZeroToNode.
End BorisProofs.

Section BorisTables.
  Context {K : Type} (kO kI : K) (kadd kmul ksub : K -> K -> K) (kopp : K -> K).
  Hypothesis Rth : ring_theory kO kI kadd kmul ksub kopp (@eq K).
  Context {X Fld A : Type}.
  Local Infix "*!" := kmul (at level 40, left associativity).
  Local Infix "-!" := ksub (at level 50, left associativity).

  (* what boris_2nd_order.__get_Qd establishes for QI = IE, QE = EE (checked on the real tables on every run) *)
  Definition boris_tables_ok (M : nat) (nodes delta : nat -> K) (Q QQ Sm ST SQ Sx : nat -> nat -> K) (QId : nat -> K)
             (khalf : K) (Qx QT : nat -> nat -> K) : Prop :=
    (forall m j, 1 <= m <= M -> Sx m j = Qx m j -! Qx (m - 1) j) /\
    (forall m j, 1 <= m <= M -> SQ m j = QQ m j -! QQ (m - 1) j) /\
    (forall m j, 1 <= m <= M -> Sm m j = Q m j -! Q (m - 1) j) /\
    (forall m j, 1 <= m <= M -> ST m j = QT m j -! QT (m - 1) j) /\
    (forall j, Qx 0 j = kO /\ QQ 0 j = kO /\ Q 0 j = kO /\ QT 0 j = kO) /\
    (forall m j, m <= j -> Qx m j = kO) /\
    (forall m j, m < j -> QT m j = kO) /\
    (forall m, 1 <= m <= M ->
       ST m (m - 1) = QId m *! khalf /\ ST m m = QId m *! khalf /\ forall j, j + 1 < m -> ST m j = kO) /\
    (forall m, 1 <= m <= M -> delta m = nodes m -! nodes (m - 1)) /\
    nodes 0 = kO.

  Local Infix "+!" := kadd (at level 50, left associativity).
  Notation V := (X -> K).

  (* boris_matrix_form with the table hypotheses bundled *)
  Theorem boris_matrix_form_tables M dt t0 nodes delta Q QQ Sm ST SQ Sx QId
          (bf : K -> Fld -> V -> V -> A -> V) (ef : K -> V -> V -> A -> Fld)
          (bs : V -> K -> Fld -> Fld -> V -> V -> A -> V) (attr : nat -> A) khalf G Qx QT
          (p v : nat -> V) (f : nat -> Fld) tau :
    boris_tables_ok M nodes delta Q QQ Sm ST SQ Sx QId khalf Qx QT ->
    boris_contract kadd kmul bs khalf G -> build_f_is bf G -> (forall j, attr j = attr 0) -> tau_full M tau ->
    exists r, boris_update kO kadd kmul ksub M dt t0 nodes delta Sm ST SQ Sx QId bf ef bs attr p v f tau = Some r /\
    let pn := fst (fst r) in let vn := snd (fst r) in let fn := snd r in
    let Fn := bforce kadd kmul M dt t0 nodes bf attr pn vn fn in
    let Fo := bforce kadd kmul M dt t0 nodes bf attr p v f in
    (forall j, j = 0 \/ M < j -> pn j = p j /\ vn j = v j /\ fn j = f j) /\
    forall m, 1 <= m <= M ->
      fn m = ef (tnode kadd kmul dt t0 nodes m) (pn m) (v m) (attr m) /\
      forall x,
        pn m x -! dt *! dt *! sumf kO kadd (fun j => Qx m j *! Fn j x) 0 m
        = p 0 x +! dt *! nodes m *! v 0 x
          +! dt *! dt *! sumf kO kadd (fun j => (QQ m j -! Qx m j) *! Fo j x) 0 (S M) +! tauV kO fst tau m x
        /\
        vn m x -! dt *! sumf kO kadd (fun j => QT m j *! Fn j x) 0 (S m)
        = v 0 x +! dt *! sumf kO kadd (fun j => (Q m j -! QT m j) *! Fo j x) 0 (S M) +! tauV kO snd tau m x.
  Proof.
    intros [H1 [H2 [H3 [H4 [H5 [H6 [H7 [H8 [H9 H10]]]]]]]]].
    exact (boris_matrix_form kO kI kadd kmul ksub kopp Rth M dt t0 nodes delta Q QQ Sm ST SQ Sx QId bf ef bs attr khalf G Qx QT
             H1 H2 H3 H4 H5 H6 H7 H8 H9 H10 p v f tau).
  Qed.
End BorisTables.

(* non-vacuity: a concrete instance over Qc *)
From Coq Require Import ZArith QArith Qcanon Field.
From PySDC Require Import Model.SweepExec Model.BorisExec.
Section BorisInstance.
  Local Open Scope Qc_scope.

  Lemma Qc_sq_nonneg (x : Qc) : 0 <= x * x.
  Proof.
    unfold Qcle. cbn [this Qcmult Q2Qc]. rewrite !Qred_correct.
    destruct x as [[n d] H]. cbn [this]. unfold Qle, Qmult. cbn [Qnum Qden]. nia.
  Qed.

  Lemma Qc_pos_plus_sq (k a b c : Qc) : 0 < k -> k + (a * a + b * b + c * c) <> 0.
  Proof.
    intros Hk H. apply (Qclt_not_le _ _ Hk). rewrite <- H.
    rewrite <- (Qcplus_0_r k) at 1. apply Qcplus_le_compat; [apply Qcle_refl|].
    rewrite <- (Qcplus_0_r 0). apply Qcplus_le_compat; [|apply Qc_sq_nonneg].
    rewrite <- (Qcplus_0_r 0). apply Qcplus_le_compat; apply Qc_sq_nonneg.
  Qed.

  Lemma two_eq : two = 1 + 1. Proof. apply Qc_is_canon. reflexivity. Qed.
  Lemma half_eq : half = / (1 + 1). Proof. apply Qc_is_canon. reflexivity. Qed.

  (* The Boris rotation: with s = 2t / (1 + |t|^2) the increment R = (v- + v- x t) x s of v+ = v- + R satisfies
     R = (v- + v+) x t, i.e. v+ is the velocity v- turned about t, implicit midpoint rule.
     (1 + |t|^2 is never zero over the rationals.) *)
  Lemma boris_rotation {P : Type} (vm t s : P * ax -> Qc) x :
    (forall y, s y = two * t y / (1 + (t (fst y, A0) * t (fst y, A0) + t (fst y, A1) * t (fst y, A1) + t (fst y, A2) * t (fst y, A2)))) ->
    let R := cross (fun y => vm y + cross vm t y) s in
    R x = cross (fun y => vm y + (vm y + R y)) t x.
  Proof.
    intros Hs. destruct x as [n i]. cbv zeta. unfold cross. rewrite !Hs, two_eq. cbn [fst].
    (* one field goal for the three axes: i, nx i, nx (nx i) are the axes in cyclic order *)
    assert (N3 : nx (nx (nx i)) = i) by (destruct i; reflexivity). rewrite !N3.
    replace (t (n, A0) * t (n, A0) + t (n, A1) * t (n, A1) + t (n, A2) * t (n, A2))
      with (t (n, i) * t (n, i) + t (n, nx i) * t (n, nx i) + t (n, nx (nx i)) * t (n, nx (nx i))) by (destruct i; cbn [nx]; ring).
    field. apply Qc_pos_plus_sq. reflexivity.
  Qed.

  (* The Boris algorithm of PenningTrap_3D.boris_solver (Model/BorisExec.boris_alg, any number of particles, any fields,
     charges, masses, step) SOLVES the contract equation: the trapezoidal rule with the Lorentz force, implicit in the
     new velocity.  The algorithm is half a kick, the rotation, half a kick; once the rotation increment R is rewritten by
     boris_rotation the new velocity enters both sides only through R, and what is left is linear algebra. *)
  Theorem boris_alg_contract {P : Type} (c : P * ax -> Qc) d fo fn po vo ao x :
    boris_alg c d fo fn po vo ao x
    = vo x + c x + d * half * (lorentz fo vo ao x + lorentz fn (boris_alg c d fo fn po vo ao) ao x).
  Proof.
    destruct x as [n i], fo as [eo bo], fn as [en bn].
    unfold boris_alg, boris_alg_gen, lorentz. cbv beta zeta. cbn [fst snd].
    set (R := cross _ (fun y => two * _ / _)).   (* the rotation increment: the only place where s occurs *)
    unfold R at 1. rewrite boris_rotation by reflexivity. fold R. clearbody R.
    unfold cross. cbn [fst]. rewrite two_eq, half_eq. field. intros H; discriminate H.
  Qed.

  (* hence the two problem-side hypotheses of boris_block_form / boris_matrix_form are satisfiable (non-trivially) *)
  Example boris_contract_satisfiable {P : Type} :
    boris_contract Qcplus Qcmult (@boris_alg P) half lorentz /\
    build_f_is (fun (_ : Qc) fl (_ : P * ax -> Qc) ve a => lorentz fl ve a) lorentz.
  Proof. split; [intros c a fo fn po vo ao x; apply boris_alg_contract | intros t fl po ve a; reflexivity]. Qed.

  (* ... and so are the table hypotheses: M = 2, nodes 1/2, 1, QI = IE, QE = EE, tables as __get_Qd computes them *)
  Definition exQ  := mat [[0; 0; 0]; [0; q 1 3; q 1 6]; [0; q 1 2; q 1 2]].
  Definition exQQ := mat [[0; 0; 0]; [0; q 7 36; q 5 36]; [0; q 5 12; q 1 3]].
  Definition exQT := mat [[0; 0; 0]; [q 1 4; q 1 4; 0]; [q 1 4; q 1 2; q 1 4]].
  Definition exQx := mat [[0; 0; 0]; [q 1 8; 0; 0]; [q 1 4; q 1 4; 0]].
  Definition exSm := mat [[0; 0; 0]; [0; q 1 3; q 1 6]; [0; q 1 6; q 1 3]].
  Definition exSQ := mat [[0; 0; 0]; [0; q 7 36; q 5 36]; [0; q 2 9; q 7 36]].
  Definition exST := mat [[0; 0; 0]; [q 1 4; q 1 4; 0]; [0; q 1 4; q 1 4]].
  Definition exSx := mat [[0; 0; 0]; [q 1 8; 0; 0]; [q 1 8; q 1 4; 0]].
  Definition exQId := nthq [0; q 1 2; q 1 2].
  Definition exnodes := nthq [0; q 1 2; 1].
  Definition exdelta := nthq [0; q 1 2; q 1 2].

  Ltac qc_table := apply Qc_is_canon; vm_compute; reflexivity.
  Ltac cases_m m H := assert (Hm' : m = 1%nat \/ m = 2%nat) by lia; clear H; destruct Hm' as [-> | ->].
  Ltac cases_j j := destruct j as [|[|[|[|j]]]].

  Example boris_tables_satisfiable :
    boris_tables_ok 0 Qcmult Qcminus 2 exnodes exdelta exQ exQQ exSm exST exSQ exSx exQId half exQx exQT.
  Proof.
    unfold boris_tables_ok. repeat split.
    1-4: intros m j H; cases_m m H; cases_j j; qc_table.
    1-4: cases_j j; qc_table.
    - intros m j H. destruct m as [|[|[|m]]]; cases_j j; try lia; try qc_table;
        unfold exQx, mat, nthq; cbn [nth]; destruct m; reflexivity.
    - intros m j H. destruct m as [|[|[|m]]]; cases_j j; try lia; try qc_table;
        unfold exQT, mat, nthq; cbn [nth]; destruct m; reflexivity.
    - cases_m m H; qc_table.
    - cases_m m H; qc_table.
    - intros j Hj. cases_m m H; cases_j j; try lia; qc_table.
    - intros m H. cases_m m H; qc_table.
  Qed.
End BorisInstance.
