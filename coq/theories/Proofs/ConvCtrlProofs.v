(* C09 — proofs about Model/ConvCtrl.v: the flags after an it_check, what the aliasing per-step calls of
   prepare_next_block leave in the counters, step sizes and times, the traces of whole runs, the limiters. *)
From PySDC Require Import Model.ConvCtrl.
From Coq Require Import ZArith List Bool Arith Lia ZifyBool QArith Qabs Lqa Reals.
Import ListNotations.
Local Open Scope nat_scope.

Lemma upd_length {A} (l : list A) i v : length (upd l i v) = length l.
Proof. revert i; induction l; intros [|i]; simpl; auto. Qed.

Lemma nth_upd {A} (l : list A) i k v d :
  nth k (upd l i v) d = if (i =? k) && (i <? length l) then v else nth k l d.
Proof.
  revert i k; induction l as [|a l IH]; intros i k.
  - simpl. replace (i <? 0) with false by lia. rewrite andb_false_r. destruct i; reflexivity.
  - destruct i as [|i], k as [|k]; simpl; auto. apply IH.
Qed.

Lemma nth_upd_same {A} (l : list A) i v d : i < length l -> nth i (upd l i v) d = v.
Proof. intros H. rewrite nth_upd. replace ((i =? i) && (i <? length l)) with true by lia. reflexivity. Qed.

Lemma nth_upd_other {A} (l : list A) i k v d : i <> k -> nth k (upd l i v) d = nth k l d.
Proof. intros H. rewrite nth_upd. replace (i =? k) with false by lia. reflexivity. Qed.

Lemma seq_split a n j : j < n -> seq a n = seq a j ++ (a + j) :: seq (S (a + j)) (n - S j).
Proof.
  intros H. replace (seq a n) with (seq a (j + S (n - S j))) by (f_equal; lia).
  rewrite seq_app. reflexivity.
Qed.

Lemma nth_firstn {A} (l : list A) n k d : k < n -> nth k (firstn n l) d = nth k l d.
Proof.
  revert n k; induction l as [|a l IH]; intros [|n] [|k] H; simpl; auto; try lia.
  apply IH. lia.
Qed.

Lemma nth_skipn {A} (l : list A) k i d : nth i (skipn k l) d = nth (k + i) l d.
Proof. revert l; induction k; intros [|a l]; simpl; auto. destruct i; reflexivity. Qed.

Lemma first_true_Some l j : first_true l = Some j ->
  j < length l /\ nth j l false = true /\ forall i, i < j -> nth i l true = false.
Proof.
  revert j; induction l as [|[|] l IH]; intros j H; simpl in *; try discriminate.
  - inversion H; subst. split; [lia|]. split; [reflexivity|]. intros; lia.
  - destruct (first_true l) as [k|] eqn:E; simpl in H; inversion H; subst.
    destruct (IH k eq_refl) as (H1 & H2 & H3). split; [lia|]. split; [exact H2|].
    intros [|i] Hi; [reflexivity | apply H3; lia].
Qed.

Lemma first_true_None l : first_true l = None -> forall i d, i < length l -> nth i l d = false.
Proof.
  induction l as [|[|] l IH]; intros H i d Hi; simpl in *; [lia | discriminate |].
  destruct (first_true l) eqn:E; [discriminate|].
  destruct i; [reflexivity | apply IH; auto; lia].
Qed.

Lemma first_true_None_all l : first_true l = None -> forall b, In b l -> b = false.
Proof.
  intros H b Hb. destruct (In_nth _ _ false Hb) as (i & Hi & <-). apply first_true_None; assumption.
Qed.

Lemma existsb_firstn_mono (qs : list bool) i j : i <= j ->
  existsb (fun b => b) (firstn i qs) = true -> existsb (fun b => b) (firstn j qs) = true.
Proof.
  intros Hij H. rewrite <- (firstn_skipn i (firstn j qs)), existsb_app, firstn_firstn, Nat.min_l, H by exact Hij.
  reflexivity.
Qed.

(* prepare_next_block is called once per step; the call for step i rewrites the single slot [w i] of a
   list that the earlier calls have already modified.  What slot k holds after the loop is what its last
   writer wrote. *)
Section Loop.
Variables (A : Type) (step : nat -> list A -> list A) (w : nat -> nat).
Hypothesis step_length : forall i l, length (step i l) = length l.
Hypothesis step_other : forall i l k d, w i <> k -> nth k (step i l) d = nth k l d.
Local Notation loop := (fold_left (fun l i => step i l)).

Lemma loop_length steps l : length (loop steps l) = length l.
Proof. revert l; induction steps as [|i steps IH]; intros l; simpl; [reflexivity|]. rewrite IH. apply step_length. Qed.

Lemma loop_other steps l k d : (forall i, In i steps -> w i <> k) -> nth k (loop steps l) d = nth k l d.
Proof.
  revert l; induction steps as [|i steps IH]; intros l H; simpl; [reflexivity|].
  rewrite IH by (intros; apply H; right; assumption). apply step_other, H. left; reflexivity.
Qed.

Lemma loop_last a n j l k d :
  j < n -> (forall i, a + j < i < a + n -> w i <> k) ->
  nth k (loop (seq a n) l) d = nth k (step (a + j) (loop (seq a j) l)) d.
Proof.
  intros Hj Hw. rewrite (seq_split a n j Hj), fold_left_app. simpl.
  apply loop_other. intros i Hi. apply in_seq in Hi. apply Hw. lia.
Qed.

End Loop.

Section Counter.

Section Calls.
Variables (size : nat) (flags : list bool).

Definition rfrom : nat := match first_true flags with Some j => j | None => size - 1 end.
(* the single index that the call for step i writes *)
Definition widx (i : nat) : nat := if i <? rfrom then rfrom - i else i - rfrom.

Lemma widx_cases i k : widx i = k <-> (i < rfrom /\ k = rfrom - i) \/ (rfrom <= i /\ k = i - rfrom).
Proof. unfold widx. destruct (i <? rfrom) eqn:E; lia. Qed.

Lemma rfrom_lt : length flags = size -> 0 < size -> rfrom < size.
Proof. unfold rfrom. intros Hf Hs. destruct (first_true flags) eqn:E; [apply first_true_Some in E|]; lia. Qed.

Lemma riar_step_length i rs : length (riar_step size flags i rs) = length rs.
Proof. unfold riar_step. destruct (_ <? _); apply upd_length. Qed.

Lemma riar_step_other i rs k d : widx i <> k -> nth k (riar_step size flags i rs) d = nth k rs d.
Proof. unfold widx, riar_step; fold rfrom. destruct (i <? rfrom); apply nth_upd_other. Qed.

Lemma riar_step_same i rs :
  widx i < length rs ->
  nth (widx i) (riar_step size flags i rs) 0 =
  if i <? rfrom then 0 else if nth i flags false then nth i rs 0 + 1 else 0.
Proof. unfold widx, riar_step; fold rfrom. destruct (i <? rfrom); apply nth_upd_same. Qed.

Local Notation riar_loop := (fold_left (fun rs i => riar_step size flags i rs)).

(* slot k after the calls for steps 0 .. n-1, when the call for step i is the last that writes it *)
Lemma riar_loop_last riars n i k :
  i < n -> widx i = k -> k < length riars -> (forall i', i < i' < n -> widx i' <> k) ->
  nth k (riar_loop (seq 0 n) riars) 0 =
  if i <? rfrom then 0 else if nth i flags false then nth i (riar_loop (seq 0 i) riars) 0 + 1 else 0.
Proof.
  intros Hi <- Hk Hw. rewrite (loop_last _ _ _ riar_step_other 0 n i) by assumption.
  apply riar_step_same. rewrite (loop_length _ _ riar_step_length). exact Hk.
Qed.

(* Every counter after BasicRestartingNonMPI.prepare_next_block has been called for every step in turn,
   for EVERY flag pattern, in spite of the aliasing between the calls; rfrom is the first restarted step, or
   the last step if there is none. *)
Theorem riar_update_nth riars k :
  size <= length riars -> k < size -> rfrom < size ->
  nth k (riar_update size flags riars) 0 =
  if rfrom + k <? size then
    if nth (rfrom + k) flags false then (if (k =? 0) && (0 <? rfrom) then 0 else nth (rfrom + k) riars 0) + 1 else 0
  else if k <=? rfrom then 0 else nth k riars 0.
Proof.
  intros Hr Hk Hrf. unfold riar_update.
  destruct (rfrom + k <? size) eqn:E1.
  - (* the call for step rfrom + k writes slot k last; it reads the counter of its own step *)
    rewrite (riar_loop_last riars size (rfrom + k) k);
      [| lia | apply widx_cases; lia | lia | intros i' Hi' Hw; apply widx_cases in Hw; lia].
    replace (rfrom + k <? rfrom) with false by lia.
    destruct (nth (rfrom + k) flags false); [f_equal | reflexivity].
    destruct ((k =? 0) && (0 <? rfrom)) eqn:E2.
    + (* k = 0 < rfrom: the call for step 0 has cleared that counter *)
      replace (rfrom + k) with rfrom by lia.
      rewrite (riar_loop_last riars rfrom 0 rfrom);
      [| lia | apply widx_cases; lia | lia | intros i' Hi' Hw; apply widx_cases in Hw; lia].
      replace (0 <? rfrom) with true by lia. reflexivity.
    + (* otherwise no earlier call has written it *)
      apply (loop_other _ _ _ riar_step_other).
      intros i Hi Hw. apply in_seq in Hi. apply widx_cases in Hw. lia.
  - destruct (k <=? rfrom) eqn:E2.
    + (* there is no step rfrom + k: the call for step rfrom - k has cleared slot k *)
      rewrite (riar_loop_last riars size (rfrom - k) k);
      [| lia | apply widx_cases; lia | lia | intros i' Hi' Hw; apply widx_cases in Hw; lia].
      replace (rfrom - k <? rfrom) with true by lia. reflexivity.
    + (* no call writes slot k *)
      apply (loop_other _ _ _ riar_step_other).
      intros i Hi Hw. apply in_seq in Hi. apply widx_cases in Hw. lia.
Qed.

End Calls.

(* The counter of the first slot:
     no restart                 -> 0
     restart from the first step -> old counter + 1
     restart from a later step   -> 1   (the counter of that step was zeroed by the call for step 0
                                         before the call for the restarted step reads it) *)
Theorem riar_update_head size flags riars :
  0 < size -> length flags = size -> size <= length riars ->
  nth 0 (riar_update size flags riars) 0 =
  match first_true flags with
  | None => 0
  | Some 0 => nth 0 riars 0 + 1
  | Some (S _) => 1
  end.
Proof.
  intros Hs Hf Hr. rewrite riar_update_nth by auto using rfrom_lt. rewrite Nat.add_0_r.
  replace (rfrom size flags <? size) with true by (pose proof (rfrom_lt size flags Hf Hs); lia).
  unfold rfrom. destruct (first_true flags) as [j|] eqn:E.
  - destruct (first_true_Some flags j E) as (_ & -> & _). destruct j; reflexivity.
  - rewrite (first_true_None flags E) by lia. reflexivity.
Qed.

Lemma riar_update_none size flags riars k :
  0 < size -> length flags = size -> size <= length riars -> first_true flags = None -> k < size ->
  nth k (riar_update size flags riars) 0 = 0.
Proof.
  intros Hs Hf Hr E Hk. rewrite riar_update_nth by auto using rfrom_lt.
  unfold rfrom. rewrite E.
  destruct (size - 1 + k <? size) eqn:E1; [rewrite (first_true_None flags E) by lia; reflexivity|].
  replace (k <=? size - 1) with true by lia. reflexivity.
Qed.

(* the aliasing between the per-step calls of BasicRestartingNonMPI.prepare_next_block, made visible:
   3 steps with counters 0, 2, 5, steps 1 and 2 restarted.  The calls in turn give 1, 6, 5; updating
   all counters from a snapshot (as the MPI variant does) would give 3, 6, 0. *)
Example counter_aliasing : riar_update 3 [false; true; true] [0; 2; 5] = [1; 6; 5].
Proof. reflexivity. Qed.

End Counter.

Section Controller.
Variable T : Type.
Variable N : ConvCtrl.num T.

(* the effect of the controllers other than BasicRestarting on the status of one step *)
Definition stage_fun (c : cfg T) (final : bool) (dt : T) (i : inj T) (st : stage) (s : sstate T) : sstate T :=
  match st with
  | SScripted => SState (s_restart s || i_req i)
                        (match i_dtn i with Some d => Some d | None => s_dtnew s end) (Some (i_err i))
  | SAdapt => if final then
                match s_err s with
                | Some e => SState (s_restart s || nleb N (c_e_tol c) e) (Some (optimal_dt N c dt (i_pw i))) (s_err s)
                | None => s
                end
              else s
  | SSlope => SState (s_restart s) (option_map (slope_limit N c dt (s_restart s)) (s_dtnew s)) (s_err s)
  | SLimit => SState (s_restart s) (option_map (abs_limit N c) (s_dtnew s)) (s_err s)
  | SRestart => s
  end.

Definition own (c : cfg T) (final : bool) (dt : T) (i : inj T) (pre : list stage) (s : sstate T) : sstate T :=
  fold_left (fun s st => stage_fun c final dt i st s) pre s.

Lemma apply_stage_fun c final first riar dt i st buf s :
  st <> SRestart ->
  apply_stage N c final first riar dt i st (buf, s) = Some (buf, stage_fun c final dt i st s).
Proof.
  destruct st; try congruence; intros _; simpl; try reflexivity.
  destruct final; [destruct (s_err s)|]; reflexivity.
Qed.

Lemma apply_stages_pre c final first riar dt i pre buf s :
  ~ In SRestart pre ->
  apply_stages N c final first riar dt i pre (buf, s) = Some (buf, own c final dt i pre s).
Proof.
  revert s; induction pre as [|st pre IH]; intros s Hn; cbn [apply_stages]; [reflexivity|].
  rewrite apply_stage_fun by (intros ->; apply Hn; left; reflexivity).
  apply IH. intros H. apply Hn. right. exact H.
Qed.

Lemma apply_stages_app c final first riar dt i l1 l2 bs :
  apply_stages N c final first riar dt i (l1 ++ l2) bs =
  match apply_stages N c final first riar dt i l1 bs with
  | None => None
  | Some bs' => apply_stages N c final first riar dt i l2 bs'
  end.
Proof.
  revert bs; induction l1 as [|st l1 IH]; intros bs; simpl; [reflexivity|].
  destruct (apply_stage N c final first riar dt i st bs); auto.
Qed.

Definition order_ok (c : cfg T) (pre : list stage) : Prop :=
  c_order c = pre ++ [SRestart] /\ ~ In SRestart pre.

Lemma apply_stages_order c pre final first riar dt i buf s :
  order_ok c pre ->
  apply_stages N c final first riar dt i (c_order c) (buf, s) =
  let o := own c final dt i pre s in
  match restart_stage c first riar buf (s_restart o) with
  | None => None
  | Some (buf', r') => Some (buf', set_restart r' o)
  end.
Proof.
  intros [Ho Hn]. rewrite Ho, apply_stages_app, apply_stages_pre by auto. simpl.
  destruct (restart_stage c first riar buf (s_restart (own c final dt i pre s))) as [[b r]|]; reflexivity.
Qed.

(* the own (pre-propagation) status of every step of the pass *)
Fixpoint owns (c : cfg T) (final : bool) (pre : list stage) (riars : list nat) (dts : list T)
         (injs : list (inj T)) (ss : list (sstate T)) : list (sstate T) :=
  match riars, dts, injs, ss with
  | _ :: riars', dt :: dts', i :: injs', s :: ss' =>
      own c final dt i pre s :: owns c final pre riars' dts' injs' ss'
  | _, _, _, _ => []
  end.

Fixpoint set_flags (fl : list bool) (ss : list (sstate T)) : list (sstate T) :=
  match fl, ss with
  | f :: fl', s :: ss' => set_restart f s :: set_flags fl' ss'
  | _, _ => []
  end.

(* propagation of restart requests along the block by the buffer *)
Fixpoint prop_flags (br bm : bool) (qs : list bool) : list bool :=
  match qs with
  | [] => []
  | q :: t => ((q || br) && negb bm) :: prop_flags (q || br) bm t
  end.

Definition or_all (br : bool) (qs : list bool) : bool := fold_left orb qs br.

Lemma set_flags_length fl (os : list (sstate T)) : length fl = length os -> length (set_flags fl os) = length os.
Proof. revert os; induction fl as [|f fl IH]; intros [|o os] H; simpl in *; try lia; auto. Qed.

Lemma set_flags_flags fl (os : list (sstate T)) : length fl = length os ->
  map (@s_restart T) (set_flags fl os) = fl.
Proof.
  revert os; induction fl as [|f fl IH]; intros [|o os] H; simpl in *; try lia; auto.
  rewrite IH by lia. reflexivity.
Qed.

Lemma set_flags_keeps {B} (f : sstate T -> B) fl os :
  (forall b s, f (set_restart b s) = f s) -> length fl = length os -> map f (set_flags fl os) = map f os.
Proof.
  intros Hf. revert os; induction fl as [|b fl IH]; intros [|o os] H; simpl in *; try lia; auto.
  rewrite Hf, IH by lia. reflexivity.
Qed.

Lemma set_flags_dtnew fl (os : list (sstate T)) : length fl = length os ->
  map (@s_dtnew T) (set_flags fl os) = map (@s_dtnew T) os.
Proof. apply set_flags_keeps. reflexivity. Qed.

Lemma set_flags_err fl (os : list (sstate T)) : length fl = length os ->
  map (@s_err T) (set_flags fl os) = map (@s_err T) os.
Proof. apply set_flags_keeps. reflexivity. Qed.

Lemma nth_map_set_restart b (l : list (sstate T)) k : k < length l ->
  nth k (map (@s_restart T) (map (set_restart b) l)) false = b.
Proof.
  revert k; induction l as [|a l IH]; intros k Hk; simpl in *; [lia|].
  destruct k; [reflexivity|]. apply IH. lia.
Qed.

Lemma prop_flags_length br bm qs : length (prop_flags br bm qs) = length qs.
Proof. revert br; induction qs; intros; simpl; auto. Qed.

(* flag i = the budget is left and some step j <= i asked (or the buffer was already set) *)
Lemma prop_flags_nth br bm qs i : i < length qs ->
  nth i (prop_flags br bm qs) false = (br || existsb (fun b => b) (firstn (S i) qs)) && negb bm.
Proof.
  revert br i; induction qs as [|q qs IH]; intros br i Hi; simpl in *; [lia|].
  destruct i.
  - destruct q, br; reflexivity.
  - rewrite IH by lia. simpl. destruct q, br; reflexivity.
Qed.

Lemma or_all_spec br qs : or_all br qs = br || existsb (fun b => b) qs.
Proof.
  revert br; induction qs as [|q qs IH]; intros br; simpl; [rewrite orb_false_r; reflexivity|].
  unfold or_all in *. simpl. rewrite IH. destruct br, q; reflexivity.
Qed.

Lemma owns_length c final pre riars dts injs ss n :
  length riars = n -> length dts = n -> length injs = n -> length ss = n ->
  length (owns c final pre riars dts injs ss) = n.
Proof.
  revert n dts injs ss; induction riars as [|r riars IH]; intros n dts injs ss <-; [reflexivity|].
  destruct dts, injs, ss; simpl; try discriminate.
  intros [= H1] [= H2] [= H3]. f_equal. apply IH; auto.
Qed.

Lemma owns_nth c final pre riars dts injs ss k dd di ds :
  k < length (owns c final pre riars dts injs ss) ->
  nth k (owns c final pre riars dts injs ss) ds =
  own c final (nth k dts dd) (nth k injs di) pre (nth k ss ds).
Proof.
  revert dts injs ss k; induction riars as [|r riars IH]; intros dts injs ss k; [simpl; lia|].
  destruct dts, injs, ss; simpl; try lia.
  destruct k; [reflexivity|]. intros Hk. apply IH. lia.
Qed.

Lemma pass_steps_nonfirst c pre final idx riars dts injs ss br bm :
  order_ok c pre -> idx <> 0 ->
  pass_steps N c final idx riars dts injs ss (br, bm) =
  let os := owns c final pre riars dts injs ss in
  let qs := map (@s_restart T) os in
  Some ((or_all br qs, bm), set_flags (prop_flags br bm qs) os).
Proof.
  intros Ho. revert idx dts injs ss br.
  induction riars as [|r riars IH]; intros idx dts injs ss br Hidx; simpl; [reflexivity|].
  destruct dts as [|dt dts]; [reflexivity|]. destruct injs as [|i injs]; [reflexivity|].
  destruct ss as [|s ss]; [reflexivity|].
  rewrite (apply_stages_order c pre final (idx =? 0) r dt i (br, bm) s Ho). cbv zeta.
  apply Nat.eqb_neq in Hidx. rewrite Hidx. unfold restart_stage. simpl andb. cbv iota beta.
  rewrite IH by lia. cbv zeta. simpl.
  set (q := s_restart (own c final dt i pre s)).
  (* restart_stage computes r || (r || br), with a redundant r; or_all folds orb from the left: br || q *)
  replace (q || (q || br)) with (q || br) by (destruct q, br; reflexivity).
  replace (or_all (q || br)) with (or_all (br || q)) by (f_equal; apply orb_comm).
  reflexivity.
Qed.

(* one complete it_check *)
Theorem it_pass_spec c pre final r0 riars dts injs ss :
  order_ok c pre ->
  it_pass N c final (r0 :: riars) dts injs ss =
  let os := owns c final pre (r0 :: riars) dts injs ss in
  let qs := map (@s_restart T) os in
  let bm := c_max_restarts c <=? r0 in
  if bm && hd false qs && c_crash c then None
  else Some (if c_rffs c && negb bm then map (set_restart (or_all false qs)) (set_flags (prop_flags false bm qs) os)
             else set_flags (prop_flags false bm qs) os).
Proof.
  intros Ho. unfold it_pass.
  (* a pass over no step at all: both sides are Some [] *)
  destruct dts as [|dt dts], injs as [|i injs], ss as [|s ss];
    try (simpl; rewrite andb_false_r; simpl; rewrite !Tauto.if_same; reflexivity).
  simpl pass_steps.
  rewrite (apply_stages_order c pre final true r0 dt i (false, false) s Ho). cbv zeta.
  unfold restart_stage. simpl owns. simpl map. simpl hd.
  set (q := s_restart (own c final dt i pre s)).
  set (bm := c_max_restarts c <=? r0).
  simpl andb.
  destruct (bm && q && c_crash c) eqn:Ecr; [reflexivity|].
  rewrite (pass_steps_nonfirst c pre final 1 riars dts injs ss (q || false) bm Ho) by discriminate. cbv zeta.
  assert (Hex : existsb (fun st => match st with SRestart => true | _ => false end) (c_order c) = true).
  { destruct Ho as [Ho _]. rewrite Ho, existsb_app. simpl. apply orb_true_r. }
  rewrite Hex, andb_true_r. simpl.
  rewrite !orb_false_r. rewrite ?orb_diag.
  destruct (c_rffs c && negb bm); reflexivity.
Qed.

(* the flags after one it_check, step by step: nothing is flagged once the retry budget is exhausted;
   otherwise step k is flagged iff some step asked — any step of the block in restart_from_first_step
   mode, a step j <= k in Gauss-Seidel mode *)
Theorem it_pass_flags c pre final riars dts injs ss ss' :
  order_ok c pre -> it_pass N c final riars dts injs ss = Some ss' ->
  let qs := map (@s_restart T) (owns c final pre riars dts injs ss) in
  length ss' = length qs /\
  forall k, k < length qs ->
    nth k (map (@s_restart T) ss') false =
    negb (c_max_restarts c <=? hd 0 riars) && existsb (fun b => b) (if c_rffs c then qs else firstn (S k) qs).
Proof.
  intros Ho. destruct riars as [|r0 riars].
  { (* no step: ss' = [] *)
    unfold it_pass. simpl. destruct (_ && _ && _); intros [= <-]; (split; [reflexivity | simpl; lia]). }
  rewrite (it_pass_spec c pre final r0 riars dts injs ss Ho). cbv zeta. simpl hd.
  set (os := owns c final pre (r0 :: riars) dts injs ss). set (qs := map (@s_restart T) os).
  set (bm := c_max_restarts c <=? r0).
  assert (Hq : length qs = length os) by apply map_length.
  assert (Hl : length (prop_flags false bm qs) = length os) by (rewrite prop_flags_length; exact Hq).
  destruct (_ && _ && _); [discriminate|]. intros [= <-]. rewrite Hq.
  destruct (c_rffs c && negb bm) eqn:E.
  - apply andb_true_iff in E. destruct E as [Er Eb]. apply negb_true_iff in Eb.
    rewrite Er. rewrite Eb in Hl |- *.
    split; [rewrite map_length; apply set_flags_length, Hl|].
    intros k Hk. rewrite nth_map_set_restart by (rewrite set_flags_length; assumption).
    apply or_all_spec.
  - split; [apply set_flags_length, Hl|].
    intros k Hk. rewrite set_flags_flags, prop_flags_nth by (rewrite ?Hq; assumption).
    destruct bm; [apply andb_false_r|]. rewrite andb_true_r in E. rewrite E. apply andb_true_r.
Qed.

(* retry budget exhausted: the block is accepted as it is (or the run raised) *)
Lemma it_pass_exhausted c pre final r0 riars dts injs ss ss' :
  order_ok c pre -> c_max_restarts c <= r0 ->
  it_pass N c final (r0 :: riars) dts injs ss = Some ss' ->
  forall s, In s ss' -> s_restart s = false.
Proof.
  intros Ho Hm H s Hs. destruct (it_pass_flags c pre final _ dts injs ss ss' Ho H) as [Hl Hfl]. simpl hd in Hfl.
  destruct (In_nth _ _ (sstate0 T) Hs) as (k & Hk & <-).
  rewrite <- (map_nth (@s_restart T)). simpl s_restart. rewrite Hfl by lia.
  replace (c_max_restarts c <=? r0) with true by lia. reflexivity.
Qed.

Lemma it_pass_raise_iff c pre final r0 riars dts injs ss :
  order_ok c pre ->
  (it_pass N c final (r0 :: riars) dts injs ss = None <->
   c_max_restarts c <= r0 /\ c_crash c = true /\
   hd false (map (@s_restart T) (owns c final pre (r0 :: riars) dts injs ss)) = true).
Proof.
  intros Ho. rewrite (it_pass_spec c pre final r0 riars dts injs ss Ho). cbv zeta.
  destruct (_ && _ && _) eqn:E.
  - apply andb_true_iff in E. destruct E as [E Ec]. apply andb_true_iff in E. destruct E as [Em Eh].
    apply Nat.leb_le in Em. split; [auto | reflexivity].
  - split; [discriminate|]. intros (Hm & Hc & Hh). apply Nat.leb_le in Hm. rewrite Hm, Hc, Hh in E. discriminate.
Qed.

Lemma run_passes_invariant c riars dts (P : list (sstate T) -> Prop) passes ss ss' :
  (forall final p ss0 ss1, In p passes -> P ss0 -> it_pass N c final riars dts p ss0 = Some ss1 -> P ss1) ->
  P ss -> run_passes N c riars dts passes ss = Some ss' -> P ss'.
Proof.
  revert ss; induction passes as [|p rest IH]; intros ss Hstep H0 H.
  - injection H as <-. exact H0.
  - destruct rest as [|p2 rest].
    + exact (Hstep true p ss ss' (in_eq _ _) H0 H).
    + change (match it_pass N c false riars dts p ss with
              | None => None | Some ss1 => run_passes N c riars dts (p2 :: rest) ss1 end = Some ss') in H.
      destruct (it_pass N c false riars dts p ss) as [ss1|] eqn:E; [|discriminate].
      apply (IH ss1); [| exact (Hstep false p ss ss1 (in_eq _ _) H0 E) | exact H].
      intros final q ss2 ss3 Hq. apply Hstep. right; exact Hq.
Qed.

Lemma run_passes_length c pre riars dts passes ss ss' n :
  order_ok c pre ->
  length riars = n -> length dts = n -> (forall p, In p passes -> length p = n) -> length ss = n ->
  run_passes N c riars dts passes ss = Some ss' -> length ss' = n.
Proof.
  intros Ho H1 H2 Hp. apply (run_passes_invariant c riars dts (fun ss => length ss = n)).
  intros final p ss0 ss1 Hin H0 H. destruct (it_pass_flags c pre final riars dts p ss0 ss1 Ho H) as [-> _].
  rewrite map_length. apply owns_length; auto.
Qed.

Lemma run_passes_exhausted c pre r0 riars dts passes ss ss' :
  order_ok c pre -> c_max_restarts c <= r0 -> (forall s, In s ss -> s_restart s = false) ->
  run_passes N c (r0 :: riars) dts passes ss = Some ss' -> forall s, In s ss' -> s_restart s = false.
Proof.
  intros Ho Hm. apply (run_passes_invariant c (r0 :: riars) dts (fun ss => forall s, In s ss -> s_restart s = false)).
  intros final p ss0 ss1 _ _. apply (it_pass_exhausted c pre); assumption.
Qed.

Section Spread.
Variables (c : cfg T) (size : nat) (flags : list bool) (dtnews : list (option T)) (times : list T).
Local Notation sstep := (spread_step N c size flags dtnews times).

Lemma spread_step_length i ds : length (sstep i ds) = length ds.
Proof. unfold spread_step. destruct (spread_from N c size flags dtnews). apply upd_length. Qed.

Lemma spread_step_other i ds k d : i <> k -> nth k (sstep i ds) d = nth k ds d.
Proof. unfold spread_step. destruct (spread_from N c size flags dtnews). apply nth_upd_other. Qed.

Lemma spread_update_length dts : length (spread_update N c size flags dtnews times dts) = length dts.
Proof. apply (loop_length _ _ spread_step_length). Qed.

(* the value a call of SpreadStepSizesBlockwiseNonMPI.prepare_next_block writes, as a function of the
   entry dt_all[restart_at] it reads from the CURRENT step sizes *)
Definition spread_value (r : nat) (d x : T) : T :=
  if c_overwrite c then
    pmin N d (pmax N (ndiv N (nsub N (nsub N (c_Tend c) (nth r times (n0 N))) x) (nofnat N size)) (c_dt_initial c))
  else d.

Definition read_r (r : nat) (ds : list T) : T := match r with O => n0 N | S _ => nth r ds (n0 N) end.

Variables (sf r : nat) (d : T).
Hypothesis Hsf : spread_from N c size flags dtnews = (sf, r).
Hypothesis Hd : nth sf dtnews None = Some d.

Lemma spread_step_eq i ds : sstep i ds = upd ds i (spread_value r d (read_r r ds)).
Proof.
  unfold spread_step. rewrite Hsf, Hd. unfold spread_value, read_r.
  destruct (c_overwrite c); reflexivity.
Qed.

Lemma spread_update_nth dts k :
  size <= length dts -> k < size ->
  nth k (spread_update N c size flags dtnews times dts) (n0 N) =
  spread_value r d (read_r r (fold_left (fun ds i => sstep i ds) (seq 0 k) dts)).
Proof.
  intros Hl Hk. unfold spread_update.
  rewrite (loop_last _ _ (fun i => i) spread_step_other 0 size k) by (auto; lia).
  rewrite spread_step_eq. apply nth_upd_same. rewrite (loop_length _ _ spread_step_length). lia.
Qed.

End Spread.

(* all steps of the next block share one step size, PROVIDED the step whose size is spread carries a
   proposal and the block is restarted from its first step, from its last step, or not at all: then no call
   reads an entry an earlier call has written *)
Theorem block_shares_dt_partial c size flags dtnews times dts sf r d i k :
  spread_from N c size flags dtnews = (sf, r) -> nth sf dtnews None = Some d ->
  size <= length dts -> (r = 0 \/ size <= r + 1) ->
  i < size -> k < size ->
  nth i (spread_update N c size flags dtnews times dts) (n0 N) =
  nth k (spread_update N c size flags dtnews times dts) (n0 N).
Proof.
  intros Hsf Hd Hl Hr.
  assert (H : forall m, m < size ->
            nth m (spread_update N c size flags dtnews times dts) (n0 N) =
            spread_value c size times r d (read_r r dts)).
  { intros m Hm. rewrite (spread_update_nth c size flags dtnews times sf r d Hsf Hd dts m Hl Hm).
    f_equal. destruct r as [|r]; [reflexivity|]. simpl.
    apply (loop_other _ _ (fun i => i) (spread_step_other c size flags dtnews times)).
    intros j Hj. apply in_seq in Hj. lia. }
  intros Hi Hk. rewrite (H i Hi), (H k Hk). reflexivity.
Qed.

Lemma spread_from_r c size flags dtnews :
  snd (spread_from N c size flags dtnews) =
  match first_true flags with Some j => j | None => size - 1 end.
Proof.
  unfold spread_from. destruct (first_true flags); [destruct (negb (c_rffs c))|]; reflexivity.
Qed.

Lemma time_step_length dts i ts : length (time_step N dts i ts) = length ts.
Proof. apply upd_length. Qed.

Lemma time_step_other dts i ts k d : i <> k -> nth k (time_step N dts i ts) d = nth k ts d.
Proof. apply nth_upd_other. Qed.

Lemma time_step_same dts i ts d :
  i < length ts -> nth i (time_step N dts i ts) d = nadd N (nth (i - 1) ts (n0 N)) (nth (i - 1) dts (n0 N)).
Proof. apply nth_upd_same. Qed.

Lemma times_update_length size dts times : length (times_update N size dts times) = length times.
Proof. apply (loop_length _ _ (time_step_length dts)). Qed.

Lemma times_update_head size dts times d : nth 0 (times_update N size dts times) d = nth 0 times d.
Proof.
  apply (loop_other _ _ (fun i => i) (time_step_other dts)). intros i Hi. apply in_seq in Hi. lia.
Qed.

Lemma true_prefix_le l : true_prefix l <= length l.
Proof. induction l as [|[|] l IH]; simpl; lia. Qed.

Definition slots_wf (size : nat) (g : gstate T) : Prop :=
  0 < size /\ size <= length (g_riars g) /\
  length (g_times g) = length (g_riars g) /\ length (g_dts g) = length (g_riars g).

Lemma next_block_wf c size g ss u0s uends :
  slots_wf size g ->
  let bo := next_block N c size g ss u0s uends in
  length (g_riars (bo_state bo)) = length (g_riars g) /\
  (0 < bo_active bo -> slots_wf (bo_active bo) (bo_state bo)).
Proof.
  intros (H0 & H1 & H2 & H3). unfold next_block, slots_wf. cbv zeta.
  destruct (match first_true _ with Some j => _ | None => _ end) as [tok t0].
  cbn [bo_state bo_active g_riars g_times g_dts].
  set (riars' := riar_update _ _ _). set (dts' := spread_update _ _ _ _ _ _ _).
  set (times' := times_update _ _ _ _). set (act := map _ times').
  assert (Hr : length riars' = length (g_riars g)) by apply (loop_length _ _ (riar_step_length size _)).
  assert (Hd : length dts' = length (g_dts g)) by apply spread_update_length.
  assert (Ht : length times' = length (g_times g)) by (unfold times'; rewrite times_update_length; apply upd_length).
  assert (Ha : length act = length times') by apply map_length.
  pose proof (true_prefix_le act). lia.
Qed.

(* restart semantics of run(): which steps are kept, where and from what the next block starts *)
Theorem next_block_restart c size g ss u0s uends j :
  first_true (map (@s_restart T) ss) = Some j ->
  let bo := next_block N c size g ss u0s uends in
  (forall i, i < j -> nth i (map (@s_restart T) ss) true = false) /\
  nth j (map (@s_restart T) ss) false = true /\
  bo_restart_at bo = j /\
  bo_token bo = nth j u0s (-1)%Z /\
  (0 < length (g_times g) -> nth 0 (g_times (bo_state bo)) (n0 N) = nth j (g_times g) (n0 N)).
Proof.
  intros E. destruct (first_true_Some _ _ E) as (Hj & Hjt & Hlt).
  unfold next_block. rewrite E. cbv zeta. simpl.
  repeat split; auto.
  intros Hl. rewrite times_update_head. apply nth_upd_same. exact Hl.
Qed.

Theorem next_block_accept c size g ss u0s uends :
  first_true (map (@s_restart T) ss) = None ->
  let bo := next_block N c size g ss u0s uends in
  (forall s, In s ss -> s_restart s = false) /\
  bo_restart_at bo = size /\
  bo_token bo = nth (size - 1) uends (-1)%Z /\
  (0 < length (g_times g) ->
   nth 0 (g_times (bo_state bo)) (n0 N) =
   nadd N (nth (size - 1) (g_times g) (n0 N)) (nth (size - 1) (g_dts g) (n0 N))).
Proof.
  intros E. unfold next_block. rewrite E. cbv zeta. simpl.
  repeat split; auto.
  - intros s Hs. apply (first_true_None_all _ E). apply in_map. exact Hs.
  - intros Hl. rewrite times_update_head. apply nth_upd_same. exact Hl.
Qed.

Theorem next_block_counter c size g ss u0s uends :
  slots_wf size g -> length ss = size ->
  nth 0 (g_riars (bo_state (next_block N c size g ss u0s uends))) 0 =
  match first_true (map (@s_restart T) ss) with
  | None => 0
  | Some 0 => nth 0 (g_riars g) 0 + 1
  | Some (S _) => 1
  end.
Proof.
  intros (H0 & H1 & H2 & H3) Hs. unfold next_block. cbv zeta.
  destruct (match first_true _ with Some j => (_, _) | None => _ end) as [tok t0]. simpl.
  apply riar_update_head; rewrite ?map_length; assumption.
Qed.


Definition bt0 : block_trace T := BlockTrace (GState [] [] []) [] 0%Z.
Definition att0 : attempt T := Attempt [] [] [].

(* the block attempt was restarted from its first step *)
Definition restarted_first (bt : block_trace T) : Prop :=
  first_true (map (@s_restart T) (bt_post bt)) = Some 0.

(* the script offers an injection for every slot in every pass *)
Definition script_ok (np : nat) (script : list (attempt T)) : Prop :=
  forall a, In a script -> forall p, In p (a_passes a) -> np <= length p.

(* number of steps of a block attempt that were kept *)
Definition accepted (bt : block_trace T) : nat :=
  match first_true (map (@s_restart T) (bt_post bt)) with
  | Some j => j
  | None => length (bt_post bt)
  end.

Lemma restarted_first_dec bt : {restarted_first bt} + {~ restarted_first bt}.
Proof. unfold restarted_first. repeat decide equality. Qed.

(* The traces run_blocks can produce from [size] active slots of [g]: the run may stop after any block; an
   attempt that raised is recorded without status; a completed attempt is followed by the trace from the
   state next_block leaves.  The outcome of the run plays no part in the theorems below. *)
Inductive blocks_trace (c : cfg T) : nat -> gstate T -> list (attempt T) -> list (block_trace T) -> Prop :=
| trace_stop size g script : blocks_trace c size g script []
| trace_raised size g a rest :
    slots_wf size g -> blocks_trace c size g (a :: rest) [BlockTrace (active_part size g) [] (-1)%Z]
| trace_block size g a rest ss trs :
    slots_wf size g -> length ss = size ->
    run_passes N c (firstn size (g_riars g)) (firstn size (g_dts g)) (map (firstn size) (a_passes a))
               (repeat (sstate0 T) size) = Some ss ->
    let bo := next_block N c size g ss (a_u0s a) (a_uends a) in
    blocks_trace c (bo_active bo) (bo_state bo) rest trs ->
    blocks_trace c size g (a :: rest) (BlockTrace (active_part size g) ss (bo_token bo) :: trs).

Lemma run_blocks_trace c pre script :
  order_ok c pre -> forall size g trs o,
  slots_wf size g -> script_ok (length (g_riars g)) script ->
  run_blocks N c script size g = (trs, o) -> blocks_trace c size g script trs.
Proof.
  intros Ho. induction script as [|a rest IH]; intros size g trs o Hwf Hsc Hrun; simpl in Hrun.
  - injection Hrun as <- _. apply trace_stop.
  - destruct (run_passes N c _ _ _ _) as [ss|] eqn:Erp; [|injection Hrun as <- _; apply trace_raised, Hwf].
    assert (Hss : length ss = size).
    { destruct Hwf as (H0 & H1 & H2 & H3).
      eapply (run_passes_length c pre); eauto; rewrite ?firstn_length, ?repeat_length; try lia.
      intros p Hp. apply in_map_iff in Hp. destruct Hp as (p0 & <- & Hp0).
      rewrite firstn_length. specialize (Hsc a (in_eq _ _) p0 Hp0). lia. }
    destruct (next_block_wf c size g ss (a_u0s a) (a_uends a) Hwf) as [Hlen Hwf'].
    pose proof (fun trs' => trace_block c size g a rest ss trs' Hwf Hss Erp) as Hblock. cbv zeta in Hblock.
    set (bo := next_block N c size g ss (a_u0s a) (a_uends a)) in *.
    destruct (negb (bo_prefix_ok bo)); [injection Hrun as <- _; apply Hblock, trace_stop|].
    destruct (bo_active bo =? 0) eqn:Eact; [injection Hrun as <- _; apply Hblock, trace_stop|].
    destruct (run_blocks N c rest (bo_active bo) (bo_state bo)) as [trs' o'] eqn:Erest. injection Hrun as <- _.
    apply Hblock, (IH _ _ _ o'); [apply Hwf'; lia | | exact Erest].
    rewrite Hlen. intros a' Ha'. apply Hsc. right; exact Ha'.
Qed.

Lemma init_times_length t0 acc dt n : length (init_times N t0 acc dt n) = n.
Proof. revert acc; induction n; intros [a|]; simpl; auto. Qed.

Lemma run_trace c pre t0 np script trs o :
  order_ok c pre -> script_ok np script -> run N c t0 np script = (trs, o) ->
  exists size g, blocks_trace c size g script trs.
Proof.
  intros Ho Hsc Hrun. unfold run in Hrun.
  set (g := init_state N c t0 np) in *. set (act := map _ (g_times g)) in *.
  destruct (negb (forallb negb (skipn (true_prefix act) act)));
    [injection Hrun as <- _; exists 0, g; apply trace_stop|].
  destruct (true_prefix act =? 0) eqn:Ek; [injection Hrun as <- _; exists 0, g; apply trace_stop|].
  exists (true_prefix act), g. apply (run_blocks_trace c pre script Ho _ _ _ o); [| | exact Hrun].
  - pose proof (true_prefix_le act) as Hle.
    assert (Hact : length act = np) by (unfold act, g; simpl; rewrite map_length; apply init_times_length).
    unfold slots_wf, g. simpl. rewrite init_times_length, !repeat_length. lia.
  - unfold g, init_state. simpl. rewrite repeat_length. exact Hsc.
Qed.

Lemma blocks_trace_head c size g script b trs :
  blocks_trace c size g script (b :: trs) -> bt_pre b = active_part size g /\ 0 < size.
Proof. inversion 1 as [| ? ? ? ? Hwf | ? ? ? ? ? ? Hwf]; (split; [reflexivity | apply Hwf]). Qed.

Lemma blocks_trace_skipn c size g script trs k :
  blocks_trace c size g script trs -> exists size' g', blocks_trace c size' g' (skipn k script) (skipn k trs).
Proof.
  intros H. revert k. induction H as [size g script | size g a rest Hwf | size g a rest ss trs Hwf Hss Hrp bo H IH]; intros k.
  - exists size, g. rewrite skipn_nil. apply trace_stop.
  - exists size, g. destruct k; simpl; [apply trace_raised, Hwf | rewrite skipn_nil; apply trace_stop].
  - destruct k; simpl; [exists size, g; apply trace_block; assumption | apply IH].
Qed.

(* the counter of the first slot plus the length of a streak of blocks restarted from their first step at the
   head of the trace never exceeds max_restarts: every such block raises the counter by one, and with an
   exhausted budget no step is flagged *)
Theorem retry_bound_head c pre size g script trs n :
  order_ok c pre -> blocks_trace c size g script trs ->
  0 < n -> n <= length trs -> (forall i, i < n -> restarted_first (nth i trs bt0)) ->
  n + nth 0 (g_riars g) 0 <= c_max_restarts c.
Proof.
  intros Ho H. revert n.
  induction H as [| | size g a rest ss trs Hwf Hss Hrp bo H IH]; intros n Hn Hlen Hall.
  - simpl in Hlen. lia.
  - discriminate (Hall 0 Hn).
  - pose proof (Hall 0 Hn) as Hf. unfold restarted_first in Hf. simpl in Hf.
    (* the budget is not exhausted, or the passes would have cleared the flag of the first step *)
    assert (Hlt : nth 0 (g_riars g) 0 < c_max_restarts c).
    { apply Nat.nle_gt. intros Hge. destruct Hwf as (H0 & H1 & _).
      destruct (g_riars g) as [|r0 riars]; [simpl in H1; lia|]. destruct size; [lia|]. simpl in Hge, Hrp.
      assert (Hex : forall s, In s ss -> s_restart s = false).
      { refine (run_passes_exhausted c pre _ _ _ _ _ _ Ho Hge _ Hrp).
        intros s Hs. apply (repeat_spec (S size)) in Hs. subst s. reflexivity. }
      destruct ss as [|s ss]; [discriminate|]. simpl in Hf. rewrite (Hex s (in_eq _ _)) in Hf.
      destruct (first_true _); discriminate. }
    destruct n as [|[|n]]; [lia | lia |].
    (* the streak goes on: the next block starts with the counter raised by one *)
    pose proof (next_block_counter c size g ss (a_u0s a) (a_uends a) Hwf Hss) as Hcnt.
    rewrite Hf in Hcnt. fold bo in Hcnt.
    enough (S n + nth 0 (g_riars (bo_state bo)) 0 <= c_max_restarts c) by lia.
    apply IH; [lia | simpl in Hlen; lia |]. intros i Hi. apply (Hall (S i)). lia.
Qed.

(* a streak of blocks restarted from their first step, ANYWHERE in the trace, has at most max_restarts members *)
Theorem retry_bound c pre size g script trs k n :
  order_ok c pre -> blocks_trace c size g script trs ->
  0 < n -> k + n <= length trs -> (forall i, i < n -> restarted_first (nth (k + i) trs bt0)) ->
  n <= c_max_restarts c.
Proof.
  intros Ho H Hn Hlen Hall. destruct (blocks_trace_skipn c size g script trs k H) as (size' & g' & H').
  enough (n + nth 0 (g_riars g') 0 <= c_max_restarts c) by lia.
  apply (retry_bound_head c pre _ _ _ _ n Ho H' Hn); [rewrite skipn_length; lia|].
  intros i Hi. rewrite nth_skipn. apply Hall, Hi.
Qed.

(* progress: among any max_restarts + 1 consecutive block attempts of a run there is one that was not
   restarted from its first step (it kept at least one step, or it is the attempt that raised) *)
Theorem run_progress c pre t0 np script trs o k :
  order_ok c pre -> script_ok np script ->
  run N c t0 np script = (trs, o) ->
  k + (c_max_restarts c + 1) <= length trs ->
  exists i, i < c_max_restarts c + 1 /\ ~ restarted_first (nth (k + i) trs bt0).
Proof.
  intros Ho Hsc Hrun Hlen. destruct (run_trace c pre t0 np script trs o Ho Hsc Hrun) as (size & g & H).
  (* bounded search for a block that is not restarted from its first step *)
  assert (Hdec : forall m, (forall i, i < m -> restarted_first (nth (k + i) trs bt0)) \/
                           (exists i, i < m /\ ~ restarted_first (nth (k + i) trs bt0))).
  { induction m as [|m [Hall | (i & Hi & Hn)]]; [left; intros; lia | | right; exists i; split; [lia | exact Hn]].
    destruct (restarted_first_dec (nth (k + m) trs bt0)) as [Hm | Hm]; [left | right; exists m; auto].
    intros i Hi. destruct (Nat.eq_dec i m) as [->|]; [exact Hm | apply Hall; lia]. }
  destruct (Hdec (c_max_restarts c + 1)) as [Hall | Hex]; [exfalso | exact Hex].
  assert (c_max_restarts c + 1 <= c_max_restarts c); [|lia].
  apply (retry_bound c pre size g script trs k _ Ho H); [lia | exact Hlen | exact Hall].
Qed.

(* restart semantics along a trace: consecutive block attempts, the later one starts where the
   theorems about next_block say *)
Theorem blocks_trace_restart_semantics c size g script trs k :
  blocks_trace c size g script trs -> S k < length trs ->
  let b := nth k trs bt0 in
  let b' := nth (S k) trs bt0 in
  let a := nth k script att0 in
  let n := length (bt_post b) in
  match first_true (map (@s_restart T) (bt_post b)) with
  | Some j =>
      (forall i, i < j -> nth i (map (@s_restart T) (bt_post b)) true = false) /\
      nth 0 (g_times (bt_pre b')) (n0 N) = nth j (g_times (bt_pre b)) (n0 N) /\
      bt_next b = nth j (a_u0s a) (-1)%Z
  | None =>
      nth 0 (g_times (bt_pre b')) (n0 N) =
        nadd N (nth (n - 1) (g_times (bt_pre b)) (n0 N)) (nth (n - 1) (g_dts (bt_pre b)) (n0 N)) /\
      bt_next b = nth (n - 1) (a_uends a) (-1)%Z
  end.
Proof.
  intros H. revert k.
  induction H as [| | size g a rest ss trs Hwf Hss Hrp bo H IH]; intros k Hk; try (simpl in Hk; lia).
  destruct k as [|k]; [|apply IH; simpl in Hk; lia].
  destruct trs as [|b' trs]; [simpl in Hk; lia|].
  destruct (blocks_trace_head _ _ _ _ _ _ H) as [Hpre Hact]. destruct Hwf as (H0 & H1 & H2 & H3).
  cbv zeta. cbn [nth bt_pre bt_post bt_next]. rewrite Hpre. cbn [active_part g_times g_dts].
  rewrite (nth_firstn _ (bo_active bo)) by exact Hact.
  destruct (first_true (map (@s_restart T) ss)) as [j|] eqn:E.
  - destruct (next_block_restart c size g ss (a_u0s a) (a_uends a) j E) as (Hkeep & _ & _ & Htok & Htime).
    destruct (first_true_Some _ _ E) as (Hj & _). rewrite map_length in Hj.
    split; [exact Hkeep|]. split; [|exact Htok].
    rewrite nth_firstn by lia. apply Htime. lia.
  - destruct (next_block_accept c size g ss (a_u0s a) (a_uends a) E) as (_ & _ & Htok & Htime).
    rewrite Hss. split; [|exact Htok].
    rewrite !nth_firstn by lia. apply Htime. lia.
Qed.

End Controller.
Arguments stage_fun {T} N. Arguments own {T} N. Arguments owns {T} N. Arguments order_ok {T}.
Arguments set_flags {T}. Arguments set_flags_dtnew {T}. Arguments set_flags_err {T}.
Arguments restarted_first {T}. Arguments script_ok {T}. Arguments bt0 {T}. Arguments accepted {T}.

(* statements written with [own N], [owns N] as Props/C09.v writes them: they have to stand after the
   Arguments commands above *)
Section Adaptivity.
Variable T : Type.
Variable N : ConvCtrl.num T.

(* the controllers that act before BasicRestarting, in the order their control_order dictates
   (Scripted -60, Adaptivity -50, StepSizeSlopeLimiter 91, StepSizeLimiter 92) *)
Definition canonical_pre : list stage := [SScripted; SAdapt; SSlope; SLimit].

(* at iteration maxiter, for a fresh step into which nothing but an error estimate is injected:
   the step asks for a restart iff  e_tol <= err  (the code's `e_est >= self.params.e_tol`), and its
   proposal is the formula, then the slope limiter, then the absolute limiter, in that order *)
Theorem own_canonical c dt e pw :
  own N c true dt (Inj false e pw None) canonical_pre (sstate0 T) =
  let r := nleb N (c_e_tol c) e in
  SState r (Some (abs_limit N c (slope_limit N c dt r (optimal_dt N c dt pw)))) (Some e).
Proof. reflexivity. Qed.

(* before iteration maxiter Adaptivity neither proposes nor rejects *)
Theorem own_canonical_early c dt req e pw s :
  own N c false dt (Inj req e pw None) canonical_pre s =
  SState (s_restart s || req)
         (option_map (abs_limit N c) (option_map (slope_limit N c dt (s_restart s || req)) (s_dtnew s)))
         (Some e).
Proof. reflexivity. Qed.

Lemma own_canonical_restart c dt i s :
  s_restart (own N c true dt i canonical_pre s) = s_restart s || i_req i || nleb N (c_e_tol c) (i_err i).
Proof. destruct i; reflexivity. Qed.


(* every step that is kept at iteration maxiter while the retry budget is not exhausted has an error
   estimate strictly below the tolerance:  (e_tol <= err) = false *)
Theorem accepted_error_below_tol c r0 riars dts injs ss ss' n k di :
  order_ok c canonical_pre -> r0 < c_max_restarts c ->
  length (r0 :: riars) = n -> length dts = n -> length injs = n -> length ss = n -> k < n ->
  it_pass N c true (r0 :: riars) dts injs ss = Some ss' ->
  nth k (map (@s_restart T) ss') false = false ->
  nleb N (c_e_tol c) (i_err (nth k injs di)) = false.
Proof.
  intros Ho Hlt H1 H2 H3 H4 Hk H.
  pose proof (owns_length T N c true canonical_pre _ dts injs ss n H1 H2 H3 H4) as Hn.
  destruct (it_pass_flags T N c canonical_pre true _ dts injs ss ss' Ho H) as [_ ->]; [|rewrite map_length; lia].
  set (os := owns N c true canonical_pre (r0 :: riars) dts injs ss) in *.
  simpl hd. replace (c_max_restarts c <=? r0) with false by lia. cbn [negb andb]. intros Hfl.
  (* step k did not ask itself *)
  assert (Hq : s_restart (nth k os (sstate0 T)) = false).
  { rewrite <- (map_nth (@s_restart T)). simpl s_restart. destruct (c_rffs c).
    - apply (existsb_nth (fun b => b)); [rewrite map_length; lia | exact Hfl].
    - rewrite <- (nth_firstn _ (S k)) by lia.
      apply (existsb_nth (fun b => b)); [rewrite firstn_length, map_length; lia | exact Hfl]. }
  unfold os in Hq.
  rewrite (owns_nth T N c true canonical_pre _ dts injs ss k (n0 N) di) in Hq by (fold os; lia).
  rewrite own_canonical_restart in Hq. destruct (nleb N _ _); [|reflexivity].
  rewrite orb_true_r in Hq. discriminate.
Qed.

Lemma owns_fresh_requests c riars dts injs n :
  length riars = n -> length dts = n -> length injs = n ->
  (forall i, In i injs -> i_req i = false) ->
  map (@s_restart T) (owns N c true canonical_pre riars dts injs (repeat (sstate0 T) n)) =
  map (fun i => nleb N (c_e_tol c) (i_err i)) injs.
Proof.
  revert n dts injs; induction riars as [|r riars IH]; intros n dts injs <-.
  - destruct injs; [reflexivity | discriminate].
  - destruct dts as [|d dts], injs as [|i injs]; try discriminate. intros [= H2] [= H3] Hreq.
    cbn [length repeat owns map]. f_equal.
    + rewrite own_canonical_restart, (Hreq i) by (left; reflexivity). reflexivity.
    + apply IH; auto. intros j Hj. apply Hreq. right. exact Hj.
Qed.

(* restart iff: without scripted requests, for fresh steps, Gauss-Seidel propagation (not
   restart_from_first_step), budget not exhausted: step k is restarted exactly when some step j <= k has
   e_tol <= err_j *)
Theorem restart_iff c r0 riars dts injs n k :
  order_ok c canonical_pre -> r0 < c_max_restarts c -> c_rffs c = false ->
  length (r0 :: riars) = n -> length dts = n -> length injs = n -> k < n ->
  (forall i, In i injs -> i_req i = false) ->
  exists ss', it_pass N c true (r0 :: riars) dts injs (repeat (sstate0 T) n) = Some ss' /\
    nth k (map (@s_restart T) ss') false =
    existsb (fun i => nleb N (c_e_tol c) (i_err i)) (firstn (S k) injs).
Proof.
  intros Ho Hlt Hrf H1 H2 H3 Hk Hreq.
  destruct (it_pass N c true (r0 :: riars) dts injs (repeat (sstate0 T) n)) as [ss'|] eqn:E.
  2:{ destruct (proj1 (it_pass_raise_iff T N c canonical_pre true r0 riars dts injs _ Ho) E) as [Hge _]. lia. }
  exists ss'. split; [reflexivity|].
  destruct (it_pass_flags T N c canonical_pre true _ dts injs _ ss' Ho E) as [_ ->];
    [|rewrite map_length, (owns_length T N c true canonical_pre _ dts injs _ n) by (auto using repeat_length); exact Hk].
  rewrite Hrf, owns_fresh_requests, firstn_map by assumption.
  simpl hd. replace (c_max_restarts c <=? r0) with false by lia. cbn [negb andb].
  generalize (firstn (S k) injs). intros l. induction l; simpl; auto. rewrite IHl. reflexivity.
Qed.


(* AdaptivityBase.determine_restart with its avoid_restarts branch: before iteration maxiter it changes
   nothing (what it does from maxiter on: C09_avoid_restarts_accept) *)
Theorem adapt_decide_early c avoid iter maxiter more order e rho r fc :
  iter < maxiter -> adapt_decide N c avoid iter maxiter more order e rho r fc = (r, fc).
Proof.
  intros Hi. unfold adapt_decide.
  replace (maxiter <=? iter) with false by lia. reflexivity.
Qed.

End Adaptivity.
Arguments canonical_pre : clear implicits.

(* only "a < b gives a <= b" and "not a < b gives b <= a" are asked of the order *)
Section Order.
Variable T : Type.
Variable N : ConvCtrl.num T.
Variable le : T -> T -> Prop.
Hypothesis lt_le : forall a b, nltb N a b = true -> le a b.
Hypothesis nlt_ge : forall a b, nltb N a b = false -> le b a.

Lemma le_refl_free a : le a a.
Proof. destruct (nltb N a a) eqn:E; [apply lt_le | apply nlt_ge]; exact E. Qed.

Theorem abs_limit_lower c d :
  c_dt_max c = None -> le (c_dt_min c) (abs_limit N c d).
Proof.
  intros Hm. unfold abs_limit. rewrite Hm.
  destruct (nltb N d (c_dt_min c)) eqn:E1; [apply le_refl_free | apply nlt_ge; exact E1].
Qed.

(* StepSizeSlopeLimiter: the result is dt*slope_min, dt*slope_max, dt, or the proposal itself, and the
   proposal survives only if its ratio to dt lies in [slope_min, slope_max] *)
Theorem slope_limit_cases c dt restart d :
  let ratio := ndiv N d dt in
  let r := slope_limit N c dt restart d in
  (nltb N ratio (c_slope_min c) = true /\ r = nmul N dt (c_slope_min c)) \/
  (exists m, c_slope_max c = Some m /\ nltb N m ratio = true /\ le (c_slope_min c) ratio /\ r = nmul N dt m) \/
  (restart = false /\ nltb N (nabs N (nsub N ratio (n1 N))) (c_rel_min_slope c) = true /\
   le (c_slope_min c) ratio /\ r = dt) \/
  (le (c_slope_min c) ratio /\ (forall m, c_slope_max c = Some m -> le ratio m) /\ r = d).
Proof.
  cbv zeta. unfold slope_limit.
  destruct (nltb N (ndiv N d dt) (c_slope_min c)) eqn:E1; [left; auto|].
  apply nlt_ge in E1. right.
  destruct (match c_slope_max c with Some m => nltb N m (ndiv N d dt) | None => false end) eqn:E2.
  - left. destruct (c_slope_max c) as [m|]; [|discriminate]. exists m. auto.
  - right.
    assert (Hmax : forall m, c_slope_max c = Some m -> le (ndiv N d dt) m).
    { intros m Hm. rewrite Hm in E2. apply nlt_ge, E2. }
    destruct (nltb N (nabs N (nsub N (ndiv N d dt) (n1 N))) (c_rel_min_slope c) && negb restart) eqn:E3.
    + left. apply andb_true_iff in E3. destruct E3 as [E3 E4]. apply negb_true_iff in E4. auto.
    + right. auto.
Qed.

(* SpreadStepSizesBlockwise never hands out more than the step size it spreads *)
Theorem pmin_le_left a b : le (pmin N a b) a.
Proof. unfold pmin. destruct (nltb N b a) eqn:E; [apply lt_le; exact E | apply le_refl_free]. Qed.

Lemma spread_value_le c size times r d x : le (spread_value T N c size times r d x) d.
Proof. unfold spread_value. destruct (c_overwrite c); [apply pmin_le_left | apply le_refl_free]. Qed.

End Order.

Section Rational.
Local Open Scope Q_scope.

Lemma Qltb_true a b : Qltb a b = true <-> a < b.
Proof.
  unfold Qltb. rewrite negb_true_iff. split; intros H.
  - apply Qnot_le_lt. intros Hle. apply Qle_bool_iff in Hle. congruence.
  - destruct (Qle_bool b a) eqn:E; [|reflexivity]. apply Qle_bool_iff in E. exfalso. apply (Qlt_not_le _ _ H E).
Qed.

(* the two order facts the law-free theorems ask for hold for Q *)
Lemma Q_lt_le a b : nltb num_Q a b = true -> a <= b.
Proof. simpl. intros H. apply Qltb_true in H. apply Qlt_le_weak. exact H. Qed.
Lemma Q_nlt_ge a b : nltb num_Q a b = false -> b <= a.
Proof. simpl. unfold Qltb. rewrite negb_false_iff. apply Qle_bool_iff. Qed.

Variable c : cfg Q.

Lemma optimal_le dt pw :
  0 < c_beta c -> c_beta c <= 1 -> 0 < dt -> 0 <= pw -> pw <= 1 ->
  optimal_dt num_Q c dt pw <= dt.
Proof.
  intros Hb0 Hb1 Hdt Hp0 Hp1. unfold optimal_dt. simpl.
  assert (H1 : c_beta c * dt <= dt) by nra.
  assert (H2 : 0 <= c_beta c * dt) by nra.
  nra.
Qed.

Lemma optimal_lt dt pw :
  0 < c_beta c -> c_beta c < 1 -> 0 < dt -> 0 <= pw -> pw <= 1 ->
  optimal_dt num_Q c dt pw < dt.
Proof.
  intros Hb0 Hb1 Hdt Hp0 Hp1. unfold optimal_dt. simpl.
  assert (H1 : c_beta c * dt < dt) by nra.
  assert (H2 : 0 <= c_beta c * dt) by nra.
  nra.
Qed.

(* A rejected step (restart flag set, so the "keep dt" branch of the slope limiter is off) whose
   pow factor is at most 1 gets a strictly smaller proposal after both limiters, unless a lower
   limit binds: the result is dt_min, or the slope ratio fell below dt_slope_min. *)
Theorem rejected_gets_smaller dt pw :
  0 < c_beta c -> c_beta c < 1 -> 0 < dt -> 0 <= pw -> pw <= 1 ->
  let p := optimal_dt num_Q c dt pw in
  let r := abs_limit num_Q c (slope_limit num_Q c dt true p) in
  r < dt \/ r == c_dt_min c \/ p / dt < c_slope_min c.
Proof.
  intros Hb0 Hb1 Hdt Hp0 Hp1. cbv zeta.
  pose proof (optimal_lt dt pw Hb0 Hb1 Hdt Hp0 Hp1) as Hp.
  set (p := optimal_dt num_Q c dt pw) in *.
  (* the slope limiter hands on p or dt * slope_max < p, unless its lower limit binds *)
  assert (Hs : slope_limit num_Q c dt true p < dt \/ p / dt < c_slope_min c).
  { destruct (slope_limit_cases Q num_Q Qle Q_nlt_ge c dt true p)
      as [(H1 & _) | [(m & _ & H1 & _ & ->) | [(Hf & _) | (_ & _ & ->)]]].
    - right. apply Qltb_true, H1.
    - left. apply Qltb_true in H1. simpl in *.
      assert (dt * m < dt * (p / dt)) by (apply Qmult_lt_l; auto).
      assert (dt * (p / dt) == p) by (field; lra). lra.
    - discriminate.
    - left. exact Hp. }
  destruct Hs as [Hs | Hs]; [|right; right; exact Hs].
  generalize dependent (slope_limit num_Q c dt true p). intros s Hs.
  unfold abs_limit. simpl nltb.
  destruct (Qltb s (c_dt_min c)) eqn:E3; [right; left; reflexivity|].
  left. destruct (c_dt_max c) as [m|]; [|exact Hs].
  destruct (Qltb m s) eqn:E4; [|exact Hs]. apply Qltb_true in E4. lra.
Qed.

(* slope limiter over Q: for dt > 0 the result divided by dt lies in [slope_min, slope_max], or the
   old step size is kept *)
Theorem slope_limit_range dt restart d m :
  0 < dt -> c_slope_max c = Some m -> c_slope_min c <= m ->
  let r := slope_limit num_Q c dt restart d in
  r == dt \/ (c_slope_min c * dt <= r /\ r <= m * dt).
Proof.
  intros Hdt Hm Hlm. cbv zeta.
  destruct (slope_limit_cases Q num_Q Qle Q_nlt_ge c dt restart d)
    as [(H1 & ->) | [(m' & Hm' & H1 & H2 & ->) | [(_ & _ & _ & ->) | (H1 & H2 & ->)]]]; simpl in *.
  - right. split; [lra | nra].
  - right. rewrite Hm in Hm'. inversion Hm'; subst m'. split; [nra | lra].
  - left. reflexivity.
  - right. specialize (H2 m Hm).
    assert (Hd : d == (d / dt) * dt) by (field; lra).
    split; [rewrite Hd at 1 | rewrite Hd at 1]; nra.
Qed.

End Rational.

(* the full clause "all steps of a block share one step size" is FALSE for the code as written: a purely
   error-driven history (no scripted request): 3 steps, dt0 = 1/10, beta = 9/10, e_tol = 1/1000, Tend = 33/10.
   attempt 0: all errors 1e-5, pow factor 100/9            -> accepted, dt_new = 1, next block at 3/10 with dt = 1
   attempt 1: error of step 1 equals e_tol (pow factor 1)  -> steps 1, 2 restarted, dt_new = 9/10;
              the Tend cap binds; the calls for steps 0, 1 read dt_all[1] = 1 (old), the call for step 2
              reads the value the call for step 1 has just written
   attempt 2: step sizes 1/3, 1/3, 5/9 *)
Definition refute_cfg : cfg Q :=
  Cfg [SScripted; SAdapt; SRestart] 3 true false (1#1000)%Q (9#10)%Q 0%Q None 0%Q 0%Q None true
      (33#10)%Q 0%Q (1000000000#1)%Q (1#10)%Q.
Definition refute_script : list (attempt Q) :=
  let ok := Inj false (1#100000)%Q (100#9)%Q None in
  let bad := Inj false (1#1000)%Q 1%Q None in
  [ Attempt [[ok; ok; ok]] [0; 1; 2]%Z [1; 2; 3]%Z;
    Attempt [[ok; bad; ok]] [3; 4; 5]%Z [4; 5; 6]%Z;
    Attempt [[ok; ok; ok]] [4; 7; 8]%Z [7; 8; 9]%Z ].

(* the only statement of this file that rests on the axioms of the standard library's real numbers *)
Lemma Rpower_pos (x y : R) : (0 < Rpower x y)%R.
Proof. unfold Rpower. apply exp_pos. Qed.

