(* C07 — proofs about Model/Controller.v.
   Facts about the loop combinators that hold of any body (frame, tag match) and the pointwise loop rule; the
   callback automaton, sound w.r.t. the inductive grammar; the block invariant `Inv` and, for every stage method
   but it_check, a Hoare triple `runs` over the running steps; it_check in closed form; one call of pfasst under
   the invariant, termination measure; the theorems about reachable states and finished blocks. *)
From PySDC Require Import Base.Tactics Model.Controller.
From Coq Require Import Arith.
Import ListNotations.

Set Implicit Arguments.

Lemma upd_length A i (x : A) l : length (upd i x l) = length l.
Proof. revert i; induction l; destruct i; simpl; auto. Qed.

Lemma nth_upd A i j (x d : A) l :
  nth j (upd i x l) d = if (j =? i) && (i <? length l) then x else nth j l d.
Proof.
  revert i j; induction l as [|a l IH]; intros [|i] [|j]; simpl; auto.
  - destruct (j =? i); auto.
  - apply IH.
Qed.

(* from here on, and for importers, an update is reasoned about through these two lemmas only *)
Arguments upd : simpl never.

Definition inb (j : nat) (l : list nat) : bool := existsb (Nat.eqb j) l.

Lemma inb_In j l : inb j l = true <-> In j l.
Proof.
  unfold inb; rewrite existsb_exists; split.
  - intros (x & H & E); apply Nat.eqb_eq in E; subst; auto.
  - intros H; exists j; split; auto; apply Nat.eqb_refl.
Qed.

Lemma inb_app j a b : inb j (a ++ b) = inb j a || inb j b.
Proof. apply existsb_app. Qed.

Lemma inb_seq j a n : inb j (seq a n) = (a <=? j) && (j <? a + n).
Proof. revert a; induction n; intros a; simpl; [|rewrite IHn]; lia. Qed.

Lemma forallb_ext_in A (f g : A -> bool) l : (forall x, In x l -> f x = g x) -> forallb f l = forallb g l.
Proof. induction l; simpl; auto. intros H. rewrite H, IHl; auto. Qed.

Lemma forallb_false_in A (f : A -> bool) l x : In x l -> f x = false -> forallb f l = false.
Proof.
  intros I E. destruct (forallb f l) eqn:F; auto. rewrite forallb_forall in F. rewrite F in E; auto.
Qed.

Lemma filter_seq_const (f : nat -> bool) v m : forall a,
  (forall i, a <= i < a + m -> f i = v) -> filter f (seq a m) = if v then seq a m else [].
Proof.
  induction m; intros a H; simpl; [destruct v; auto|].
  rewrite H by lia. rewrite IHm by (intros; apply H; lia). destruct v; auto.
Qed.

Lemma skipn_seq q a m : skipn q (seq a m) = seq (a + q) (m - q).
Proof.
  revert a m; induction q; intros a m; simpl.
  - rewrite Nat.add_0_r, Nat.sub_0_r; auto.
  - destruct m; simpl; auto. rewrite IHq. f_equal; lia.
Qed.

Lemma incl_skipn A q (l : list A) : incl (skipn q l) l.
Proof.
  revert l; induction q; intros l x H; simpl in *; auto. destruct l; auto. right. apply IHq; auto.
Qed.

Fixpoint lead (f : nat -> bool) (a m : nat) : nat :=
  match m with 0 => 0 | S m' => if f a then S (lead f (S a) m') else 0 end.

Lemma lead_le f m : forall a, lead f a m <= m.
Proof. induction m; intros a; simpl; auto. specialize (IHm (S a)). destruct (f a); lia. Qed.

Lemma lead_all f m : forall a, (forall i, a <= i < a + m -> f i = true) -> lead f a m = m.
Proof. induction m; intros a H; simpl; auto. rewrite H by lia. f_equal. apply IHm. intros; apply H; lia. Qed.

Lemma lead_spec f m : forall a i, a <= i < a + m ->
  (i <? a + lead f a m) = f i && ((i =? a) || (i - 1 <? a + lead f a m)).
Proof.
  induction m; intros a i Hi; [lia|]. simpl. destruct (Nat.eq_dec i a) as [->|N].
  - destruct (f a); lia.
  - destruct (f a); [|destruct (f i); lia].
    rewrite <- Nat.add_succ_comm, (IHm (S a) i) by lia. destruct (f i); lia.
Qed.

(* the callbacks among the events, of one step and of slot j *)
Definition hook_of (e : levent) : list hook :=
  match e with LHook h _ _ _ _ _ _ => [h] | _ => [] end.
Definition hooks_of (evs : list levent) : list hook := flat_map hook_of evs.
Definition hproj (j : nat) (t : list event) : list hook :=
  flat_map (fun e => if fst e =? j then hook_of (snd e) else []) t.

Lemma hooks_of_app a b : hooks_of (a ++ b) = hooks_of a ++ hooks_of b.
Proof. apply flat_map_app. Qed.

Lemma hproj_app j a b : hproj j (a ++ b) = hproj j a ++ hproj j b.
Proof. apply flat_map_app. Qed.

Lemma hproj_tag j i evs : hproj j (tag_events i evs) = if i =? j then hooks_of evs else [].
Proof.
  unfold hproj, tag_events, hooks_of; induction evs; simpl.
  - destruct (i =? j); auto.
  - rewrite IHevs; destruct (i =? j); simpl; auto.
Qed.

(* frame: a loop over idxs touches only the steps at idxs and emits only events of those slots *)
Definition frame_rel (idxs : list nat) (s s' : bstate) : Prop :=
  length (ms s') = length (ms s) /\
  (forall j, ~ In j idxs -> nth_error (ms s') j = nth_error (ms s) j) /\
  (exists ext, tr s' = tr s ++ ext /\ Forall (fun e => In (fst e) idxs) ext).

Definition res_state (r : res) : bstate := match r with Ok s => s | Err _ s => s end.

Lemma frame_refl idxs s : frame_rel idxs s s.
Proof. repeat split; auto. exists []; rewrite app_nil_r; auto. Qed.

Lemma frame_trans idxs s1 s2 s3 : frame_rel idxs s1 s2 -> frame_rel idxs s2 s3 -> frame_rel idxs s1 s3.
Proof.
  intros (L1 & N1 & e1 & T1 & F1) (L2 & N2 & e2 & T2 & F2); repeat split; try congruence.
  - intros; rewrite N2, N1; auto.
  - exists (e1 ++ e2); rewrite T2, T1, app_assoc; split; auto. apply Forall_app; auto.
Qed.

Lemma frame_mono a b s s' : incl a b -> frame_rel a s s' -> frame_rel b s s'.
Proof.
  intros I (L & N & e & T & F); repeat split; auto.
  exists e; split; auto. eapply Forall_impl; [|exact F]. simpl; auto.
Qed.

Lemma nth_error_upd_neq A i j (x : A) l : i <> j -> nth_error (upd i x l) j = nth_error l j.
Proof. revert i j; induction l; destruct i, j; simpl; intros; try lia; auto. Qed.

Lemma Forall_tag i evs (P : event -> Prop) : (forall e, P (i, e)) -> Forall P (tag_events i evs).
Proof. intros H. apply Forall_map, Forall_forall; auto. Qed.

Lemma for_steps_frame b idxs s : frame_rel idxs s (res_state (for_steps idxs b s)).
Proof.
  revert s; induction idxs as [|i rest IH]; intros s; simpl.
  - apply frame_refl.
  - destruct (nth_error (ms s) i) as [st|]; simpl; [|apply frame_refl].
    destruct (b (ms s) i st) as [st' evs|e evs]; simpl.
    + eapply frame_trans; [|eapply frame_mono; [|apply IH]; intros x; simpl; auto].
      repeat split; simpl.
      * apply upd_length.
      * intros j N; apply nth_error_upd_neq; intros ->; apply N; simpl; auto.
      * exists (tag_events i evs); split; auto. apply Forall_tag; simpl; auto.
    + repeat split; simpl; auto. exists (tag_events i evs); split; auto. apply Forall_tag; simpl; auto.
Qed.

Definition framed (idxs : list nat) (f : bstate -> res) : Prop :=
  forall s, frame_rel idxs s (res_state (f s)).

(* tag goodness: the receives recorded by a successful computation found the tag they expected (of a failing one,
   which ends the run, nothing is asked) *)
Definition good_lev (e : levent) : Prop :=
  match e with LRecv _ t f => f = Some t | _ => True end.
Definition good_ev (e : event) : Prop := good_lev (snd e).

Definition sgood (r : sres) : Prop :=
  match r with SOk _ evs => Forall good_lev evs | SErr _ _ => True end.

Lemma tag_eqb_eq a b : tag_eqb a b = true -> a = b.
Proof.
  destruct a as [[a1 a2] a3], b as [[b1 b2] b3]; simpl; intros H.
  apply andb_true_iff in H as [H H3]; apply andb_true_iff in H as [H1 H2].
  apply Nat.eqb_eq in H1, H2, H3; subst; auto.
Qed.

Lemma otag_eqb_eq a b : otag_eqb a b = true -> a = b.
Proof. destruct a, b; simpl; try congruence; intros H; apply tag_eqb_eq in H; subst; auto. Qed.

Lemma tag_eqb_refl a : tag_eqb a a = true.
Proof. destruct a as [[a1 a2] a3]; simpl; rewrite !Nat.eqb_refl; auto. Qed.

Lemma sgood_bind r f : sgood r -> (forall st, sgood (f st)) -> sgood (sbind r f).
Proof.
  destruct r as [st evs|e evs]; simpl; auto; intros G H; specialize (H st).
  destruct (f st); simpl in *; auto. apply Forall_app; auto.
Qed.

Lemma sgood_send l i st : sgood (send_full l i st).
Proof. unfold send_full; destruct (st_last st); simpl; auto. repeat constructor. Qed.

Lemma sgood_recv l msl i st : sgood (recv_full l msl i st).
Proof.
  unfold recv_full; destruct (negb (st_prev_done st) && negb (st_first st)); simpl; auto.
  match goal with |- context [otag_eqb ?a ?b] => destruct (otag_eqb a b) eqn:E end; simpl; auto.
  apply otag_eqb_eq in E; repeat constructor; auto.
Qed.

Lemma sgood_update_nodes l st : sgood (update_nodes l st).
Proof. unfold update_nodes; destruct (nth l (st_unlocked st) false); simpl; auto. repeat constructor. Qed.

Lemma sgood_transfer a b st : sgood (transfer a b st).
Proof.
  unfold transfer; destruct (a <? b), (nth a (st_unlocked st) false); simpl; auto; repeat constructor.
Qed.

Lemma sgood_emit_hooks evs st : Forall good_lev evs -> sgood (emit evs st).
Proof. simpl; auto. Qed.

Lemma sgood_sweep_block l sg st : sgood (sweep_block l sg st).
Proof.
  unfold sweep_block; apply sgood_bind; [repeat constructor|intros].
  apply sgood_bind; [apply sgood_update_nodes|intros]. repeat constructor.
Qed.

Lemma sgood_hook h l st : sgood (SOk st [hook_ev h l st]).
Proof. simpl. repeat constructor. Qed.

Lemma sgood_fold A (f : A -> step -> sres) ls r :
  (forall l st, sgood (f l st)) -> sgood r -> sgood (fold_left (fun r l => sbind r (f l)) ls r).
Proof. intros H; revert r; induction ls; simpl; auto; intros r G. apply IHls, sgood_bind; auto. Qed.

Lemma sgood_fold_transfer (g : nat -> nat * nat) ls r :
  sgood r -> sgood (fold_left (fun r l => sbind r (transfer (fst (g l)) (snd (g l)))) ls r).
Proof. apply sgood_fold; intros; apply sgood_transfer. Qed.

Definition bgood (b : body) : Prop := forall msl i st, sgood (b msl i st).

Definition tr_good (s : bstate) : Prop := Forall good_ev (tr s).

Definition rgood (f : bstate -> res) : Prop :=
  forall s, tr_good s -> match f s with Ok s' => tr_good s' | Err _ _ => True end.

Lemma rgood_for_steps idxs b : bgood b -> rgood (for_steps idxs b).
Proof.
  intros B; induction idxs as [|i rest IH]; intros s G; simpl; auto.
  destruct (nth_error (ms s) i) as [st|]; auto.
  specialize (B (ms s) i st); destruct (b (ms s) i st) as [st' evs|]; simpl in *; auto.
  apply IH; unfold tr_good; simpl. apply Forall_app; split; auto. apply Forall_map, B.
Qed.

Lemma rgood_bind f g : rgood f -> rgood g -> rgood (fun s => f s >>= g).
Proof.
  intros Hf Hg s G; specialize (Hf s G); destruct (f s); simpl; auto. apply Hg; auto.
Qed.

Lemma rgood_bind_dep f (g : bstate -> bstate -> res) :
  rgood f -> (forall s0, rgood (g s0)) -> rgood (fun s => f s >>= fun s' => g s' s').
Proof.
  intros Hf Hg s G; specialize (Hf s G); destruct (f s) as [s1|]; simpl; auto. apply Hg; auto.
Qed.

Lemma rgood_for_each A (xs : list A) f : (forall x, rgood (f x)) -> rgood (for_each xs f).
Proof.
  intros H; induction xs as [|x xs IH]; intros s G; simpl; auto.
  specialize (H x s G); destruct (f x s); simpl; auto. apply IH; auto.
Qed.

Lemma rgood_ok : rgood Ok.
Proof. intros s G; auto. Qed.

Lemma rgood_err e : rgood (Err e).
Proof. intros s G; auto. Qed.

(* the shape of every stage method: loops over sub-lists of the running steps whose bodies respect the
   tags, put in sequence, repeated, or chosen by a test that does not depend on the state *)
Inductive built (run : list nat) : (bstate -> res) -> Prop :=
| bl_loop idxs b : incl idxs run -> bgood b -> built run (for_steps idxs b)
| bl_bind f g : built run f -> built run g -> built run (fun s => f s >>= g)
| bl_each A (xs : list A) f : (forall x, built run (f x)) -> built run (for_each xs f)
| bl_if (t : bool) f g : built run f -> built run g -> built run (fun s => if t then f s else g s)
| bl_ok : built run Ok
| bl_err e : built run (Err e).

Lemma built_framed run F : built run F -> framed run F.
Proof.
  induction 1; intros s; simpl; try apply frame_refl.
  - eapply frame_mono; [eassumption|apply for_steps_frame].
  - specialize (IHbuilt1 s). destruct (f s); simpl in *; auto. eapply frame_trans; eauto.
  - revert s; induction xs as [|x xs IH]; intros s; simpl; [apply frame_refl|].
    specialize (H0 x s). destruct (f x s); simpl in *; auto. eapply frame_trans; eauto.
  - destruct t; auto.
Qed.

Lemma built_rgood run F : built run F -> rgood F.
Proof.
  induction 1.
  - apply rgood_for_steps; auto.
  - apply rgood_bind; auto.
  - apply rgood_for_each; auto.
  - intros s G; destruct t; [apply IHbuilt1|apply IHbuilt2]; auto.
  - apply rgood_ok.
  - apply rgood_err.
Qed.

Definition sdoes (r : sres) (st' : step) (hs : list hook) : Prop :=
  exists evs, r = SOk st' evs /\ hooks_of evs = hs.

Lemma sdoes_ret st evs : sdoes (SOk st evs) st (hooks_of evs).
Proof. exists evs; auto. Qed.

Lemma sdoes_bind r f st1 h1 st2 h2 hs :
  sdoes r st1 h1 -> sdoes (f st1) st2 h2 -> h1 ++ h2 = hs -> sdoes (sbind r f) st2 hs.
Proof.
  intros (e1 & -> & <-) (e2 & E2 & <-) <-; simpl; rewrite E2.
  exists (e1 ++ e2); split; auto. apply hooks_of_app.
Qed.

(* pointwise loop rule: if, in every intermediate context, the body maps step i to F i st with hooks G i st,
   the loop is the pointwise map of F over the indices *)
Definition pw_fun (idxs : list nat) (F : nat -> step -> step) (G : nat -> step -> list hook) (s s' : bstate) : Prop :=
  length (ms s') = length (ms s) /\
  (forall j, nth j (ms s') dummy_step = if inb j idxs then F j (nth j (ms s) dummy_step) else nth j (ms s) dummy_step) /\
  (forall j, hproj j (tr s') = hproj j (tr s) ++ if inb j idxs then G j (nth j (ms s) dummy_step) else []).

Lemma for_steps_app xs ys b s : for_steps (xs ++ ys) b s = for_steps xs b s >>= for_steps ys b.
Proof.
  revert s; induction xs as [|i xs IH]; intros s; simpl; auto.
  destruct (nth_error (ms s) i); auto. destruct (b (ms s) i s0); auto.
Qed.

Lemma for_seq_pw b F G s a m :
  (forall i, a <= i < a + m -> i < length (ms s)) ->
  (forall i s1, a <= i < a + m -> pw_fun (seq a (i - a)) F G s s1 ->
     sdoes (b (ms s1) i (nth i (ms s) dummy_step)) (F i (nth i (ms s) dummy_step)) (G i (nth i (ms s) dummy_step))) ->
  exists s', for_steps (seq a m) b s = Ok s' /\ pw_fun (seq a m) F G s s'.
Proof.
  induction m as [|m IH]; intros LT HB.
  - exists s; repeat split; auto. intros; simpl; rewrite app_nil_r; auto.
  - destruct IH as (s1 & E1 & PW); [intros; apply LT; lia|intros; apply HB; auto; lia|].
    destruct (HB (a + m) s1) as (evs & Hb & Hh); [lia|replace (a + m - a) with m by lia; auto|].
    destruct PW as (L1 & N1 & T1).
    assert (Hi : a + m < length (ms s)) by (apply LT; lia).
    assert (Nin : inb (a + m) (seq a m) = false) by (rewrite inb_seq; lia).
    clear LT HB.
    rewrite seq_S, for_steps_app, E1; simpl.
    rewrite (nth_error_nth' (ms s1) dummy_step) by lia. rewrite N1, Nin, Hb.
    eexists; split; eauto. repeat split; simpl.
    + rewrite upd_length; auto.
    + intros j; rewrite nth_upd, inb_app, N1; simpl. rewrite orb_false_r.
      destruct (Nat.eqb_spec j (a + m)) as [->|N]; simpl; [|rewrite orb_false_r; auto].
      rewrite Nin. replace (a + m <? length (ms s1)) with true by lia; auto.
    + intros j; rewrite hproj_app, hproj_tag, T1, inb_app, <- app_assoc; simpl.
      rewrite (Nat.eqb_sym j), orb_false_r.
      destruct (Nat.eqb_spec (a + m) j) as [<-|N]; simpl.
      * rewrite Nin, Hh; auto.
      * rewrite orb_false_r, app_nil_r; auto.
Qed.

Definition srel := nat -> step -> step -> list hook -> Prop.

Definition pw_rel (idxs : list nat) (R : srel) (s s' : bstate) : Prop :=
  length (ms s') = length (ms s) /\
  (forall j, inb j idxs = false ->
     nth j (ms s') dummy_step = nth j (ms s) dummy_step /\ hproj j (tr s') = hproj j (tr s)) /\
  (forall j, inb j idxs = true -> j < length (ms s) ->
     exists hs, R j (nth j (ms s) dummy_step) (nth j (ms s') dummy_step) hs /\
                hproj j (tr s') = hproj j (tr s) ++ hs).

(* the two halves of pw_rel, for proofs that keep the relation folded *)
Lemma pw_rel_out idxs R s s' j : pw_rel idxs R s s' -> inb j idxs = false ->
  nth j (ms s') dummy_step = nth j (ms s) dummy_step /\ hproj j (tr s') = hproj j (tr s).
Proof. intros (_ & U & _); auto. Qed.

Lemma pw_rel_in idxs R s s' j : pw_rel idxs R s s' -> inb j idxs = true -> j < length (ms s) ->
  exists hs, R j (nth j (ms s) dummy_step) (nth j (ms s') dummy_step) hs /\ hproj j (tr s') = hproj j (tr s) ++ hs.
Proof. intros (_ & _ & C); auto. Qed.

Definition rcomp (R1 R2 : srel) : srel :=
  fun j a c hs => exists b h1 h2, R1 j a b h1 /\ R2 j b c h2 /\ hs = h1 ++ h2.

Lemma pw_rel_comp idxs R1 R2 s1 s2 s3 :
  pw_rel idxs R1 s1 s2 -> pw_rel idxs R2 s2 s3 -> pw_rel idxs (rcomp R1 R2) s1 s3.
Proof.
  intros (L1 & U1 & C1) (L2 & U2 & C2); repeat split; try congruence.
  - destruct (U1 j H), (U2 j H); congruence.
  - destruct (U1 j H), (U2 j H); congruence.
  - intros j I Hj. destruct (C1 j I Hj) as (h1 & r1 & t1).
    destruct (C2 j I) as (h2 & r2 & t2); [congruence|].
    exists (h1 ++ h2); split; [|rewrite t2, t1, app_assoc; auto].
    exists (nth j (ms s2) dummy_step), h1, h2; auto.
Qed.

Lemma pw_rel_weaken idxs (R R' : srel) s s' :
  (forall j a b h, R j a b h -> R' j a b h) -> pw_rel idxs R s s' -> pw_rel idxs R' s s'.
Proof.
  intros H (L & U & C); repeat split; auto; try apply U; auto.
  intros j I Hj; destruct (C j I Hj) as (h & r & t); eauto.
Qed.

Lemma pw_rel_refl idxs (R : srel) s : (forall j a, R j a a []) -> pw_rel idxs R s s.
Proof. intros H; repeat split; auto. intros; exists []; rewrite app_nil_r; auto. Qed.

(* pre_step (pre_predict post_predict)? (pre_iteration (pre_sweep post_sweep)+ post_iteration)* post_step *)
Inductive sweeps1 : list hook -> Prop :=
| sw_one : sweeps1 [PreSweep; PostSweep]
| sw_more l : sweeps1 l -> sweeps1 (PreSweep :: PostSweep :: l).

Inductive iters : list hook -> Prop :=
| it_nil : iters []
| it_cons sw l : sweeps1 sw -> iters l -> iters (PreIteration :: sw ++ PostIteration :: l).

Inductive grammar : list hook -> Prop :=
| gr_nopred l : iters l -> grammar (PreStep :: l ++ [PostStep])
| gr_pred l : iters l -> grammar (PreStep :: PrePredict :: PostPredict :: l ++ [PostStep]).

(* deterministic acceptor.  GA0: nothing seen; GA1: after pre_step; GAP: inside the predictor; GA2: after it;
   GI0: in an iteration, no sweep yet; GS: inside a sweep; GI1: in an iteration, after a sweep;
   GB: between iterations; GE: after post_step *)
Inductive gstate := GA0 | GA1 | GAP | GA2 | GI0 | GS | GI1 | GB | GE.

Definition gstep (g : gstate) (h : hook) : option gstate :=
  match g, h with
  | GA0, PreStep => Some GA1
  | GA1, PrePredict => Some GAP
  | GAP, PostPredict => Some GA2
  | GA1, PreIteration | GA2, PreIteration | GB, PreIteration => Some GI0
  | GA1, PostStep | GA2, PostStep | GB, PostStep => Some GE
  | GI0, PreSweep | GI1, PreSweep => Some GS
  | GS, PostSweep => Some GI1
  | GI1, PostIteration => Some GB
  | _, _ => None
  end.

Fixpoint grun (g : option gstate) (l : list hook) : option gstate :=
  match l with
  | [] => g
  | h :: t => grun (match g with Some x => gstep x h | None => None end) t
  end.

Lemma grun_app g a b : grun g (a ++ b) = grun (grun g a) b.
Proof. revert g; induction a; simpl; auto. Qed.

Lemma grun_none l : grun None l = None.
Proof. induction l; simpl; auto. Qed.

(* the words that lead from each state to GE, in terms of the grammar *)
Definition closes (l : list hook) : Prop := exists l', l = l' ++ [PostStep] /\ iters l'.
Definition sweeping (first : bool) (l : list hook) : Prop :=
  exists sw rest, l = sw ++ PostIteration :: rest /\ (sweeps1 sw \/ first = false /\ sw = []) /\ closes rest.

Definition lang (g : gstate) (l : list hook) : Prop :=
  match g with
  | GA0 => grammar l
  | GA1 => closes l \/ exists l', l = PrePredict :: PostPredict :: l' /\ closes l'
  | GAP => exists l', l = PostPredict :: l' /\ closes l'
  | GA2 | GB => closes l
  | GI0 => sweeping true l
  | GS => exists l', l = PostSweep :: l' /\ sweeping false l'
  | GI1 => sweeping false l
  | GE => l = []
  end.

Lemma closes_iter l : sweeping true l -> closes (PreIteration :: l).
Proof.
  intros (sw & rest & -> & [Hs|(E & _)] & l' & -> & Hi); [|discriminate].
  exists (PreIteration :: sw ++ PostIteration :: l'); split; [simpl; rewrite <- app_assoc; auto|constructor; auto].
Qed.

Lemma sweeping_more first l : sweeping false l -> sweeping first (PreSweep :: PostSweep :: l).
Proof.
  intros (sw & rest & -> & Hs & Hc). exists (PreSweep :: PostSweep :: sw), rest; repeat split; auto.
  left. destruct Hs as [Hs|(_ & ->)]; constructor; auto.
Qed.

Lemma closes_end : closes [PostStep].
Proof. exists []; split; auto. constructor. Qed.

Lemma lang_step g h g' l : gstep g h = Some g' -> lang g' l -> lang g (h :: l).
Proof.
  destruct g, h; simpl; intros E; inversion E; subst; clear E; simpl; intros H.
  (* the thirteen transitions: from GA0; from GA1 by PrePredict, PreIteration, PostStep; from GAP; from GA2 (two);
     GI0 and GS; from GI1 by PreSweep, PostIteration; from GB (two) *)
  - destruct H as [(l' & -> & Hi)|(l0 & -> & l' & -> & Hi)]; constructor; auto.
  - right. destruct H as (l' & -> & H); eauto.
  - left; apply closes_iter, H.
  - left; subst; apply closes_end.
  - eauto.
  - apply closes_iter, H.
  - subst; apply closes_end.
  - destruct H as (l' & -> & H); apply sweeping_more, H.
  - eauto.
  - destruct H as (l' & -> & H); apply sweeping_more, H.
  - exists [], l; auto.
  - apply closes_iter, H.
  - subst; apply closes_end.
Qed.

Theorem grun_sound l : grun (Some GA0) l = Some GE -> grammar l.
Proof.
  enough (H : forall l g, grun (Some g) l = Some GE -> lang g l) by (apply (H l GA0)).
  clear l; induction l as [|h l IH]; intros g H; simpl in H.
  - injection H as ->; reflexivity.
  - destruct (gstep g h) eqn:E; [|rewrite grun_none in H; discriminate]. eapply lang_step; eauto.
Qed.

Fixpoint rep (hs : list hook) (m : nat) : list hook :=
  match m with 0 => [] | S k => hs ++ rep hs k end.

Lemma rep_add hs a b : rep hs (a + b) = rep hs a ++ rep hs b.
Proof. induction a; simpl; auto. rewrite IHa, app_assoc; auto. Qed.

Lemma flat_map_const A (xs : list A) hs : flat_map (fun _ => hs) xs = rep hs (length xs).
Proof. induction xs; simpl; congruence. Qed.

Lemma rep_flat A hs (g : A -> nat) xs : flat_map (fun x => rep hs (g x)) xs = rep hs (list_sum (map g xs)).
Proof. induction xs; simpl; auto. rewrite rep_add; congruence. Qed.

Lemma flat_map_nil A B (xs : list A) : flat_map (fun _ => @nil B) xs = [].
Proof. induction xs; auto. Qed.

(* (pre_sweep post_sweep)^m *)
Definition sw_hooks (m : nat) : list hook := rep [PreSweep; PostSweep] m.

Lemma grun_sw_I1 m : grun (Some GI1) (sw_hooks m) = Some GI1.
Proof. induction m; simpl; auto. Qed.

Lemma grun_sw_I0 m : grun (Some GI0) (sw_hooks m) = Some (if m =? 0 then GI0 else GI1).
Proof. destruct m; simpl; auto. apply grun_sw_I1. Qed.

Definition core_eq (a b : step) : Prop :=
  st_stage b = st_stage a /\ st_iter b = st_iter a /\ st_done b = st_done a /\
  st_prev_done b = st_prev_done a /\ st_first b = st_first a /\ st_last b = st_last a /\
  st_force_done b = st_force_done a /\ st_unlocked b = st_unlocked a /\
  length (st_tags b) = length (st_tags a).

Lemma core_eq_refl a : core_eq a a.
Proof. repeat split. Qed.

Lemma core_eq_trans a b c : core_eq a b -> core_eq b c -> core_eq a c.
Proof. unfold core_eq; intuition congruence. Qed.

(* state effect of send_full *)
Definition snd_eff (l j : nat) (st : step) : step :=
  if st_last st then st else set_tags (upd l (Some ((l, st_iter st, j) : tag)) (st_tags st)) st.

Lemma snd_eff_core l j st : core_eq st (snd_eff l j st).
Proof. unfold snd_eff; destruct (st_last st); repeat split; simpl. apply upd_length. Qed.

Lemma sdoes_send l j st : sdoes (send_full l j st) (snd_eff l j st) [].
Proof. unfold send_full, snd_eff; destruct (st_last st); eexists; split; eauto. Qed.

Lemma sdoes_recv l msl i st :
  (st_prev_done st = false -> st_first st = false ->
   nth l (st_tags (nth (prev_idx (length msl) i) msl dummy_step)) None
   = Some (l, st_iter st, prev_idx (length msl) i)) ->
  sdoes (recv_full l msl i st) st [].
Proof.
  unfold recv_full; intros H.
  destruct (st_prev_done st), (st_first st); simpl; try (eexists; split; eauto; fail).
  rewrite H; auto; simpl. rewrite !Nat.eqb_refl; simpl. eexists; split; eauto.
Qed.

Lemma sdoes_update_nodes l st : nth l (st_unlocked st) false = true -> sdoes (update_nodes l st) st [].
Proof. unfold update_nodes; intros ->; eexists; split; eauto. Qed.

Lemma sdoes_sweep_block l sg st : nth l (st_unlocked st) false = true ->
  sdoes (sweep_block l sg st) st [PreSweep; PostSweep].
Proof.
  intros H; unfold sweep_block.
  eapply sdoes_bind; [apply sdoes_ret|eapply sdoes_bind; [apply sdoes_update_nodes, H|apply sdoes_ret|]|]; reflexivity.
Qed.

Lemma sdoes_restrict a st : nth a (st_unlocked st) false = true ->
  sdoes (transfer a (S a) st) (set_unlocked (upd (S a) true (st_unlocked st)) st) [].
Proof.
  intros H; unfold transfer. replace (a <? S a) with true by lia. rewrite H. eexists; split; eauto.
Qed.

Lemma sdoes_prolong a b st : b <= a -> nth a (st_unlocked st) false = true -> sdoes (transfer a b st) st [].
Proof.
  intros Hb H; unfold transfer. replace (a <? b) with false by lia. rewrite H. eexists; split; eauto.
Qed.

Section Invariant.
Variable c : cfg.
Variable o : oracle.
Variable n : nat.

Definition unl0 (u : list bool) : Prop := nth 0 u false = true.
Definition unl_all (u : list bool) : Prop := forall l, l < nlev c -> nth l u false = true.

Definition unl_ok (sg : stage) (u : list bool) : Prop :=
  match sg with
  | SPREAD | DONE => True
  | IT_COARSE | IT_UP => unl_all u
  | _ => unl0 u
  end.

(* the acceptor state of a running step's callbacks, by stage *)
Definition g_ok (sg : stage) (k : nat) (g : option gstate) : Prop :=
  match sg with
  | SPREAD => k = 0 /\ g = Some GA0
  | PREDICT => k = 0 /\ g = Some GA1 /\ 1 < nlev c
  | IT_CHECK => if k =? 0 then g = Some GA1 \/ g = Some GA2 else g = Some GI1
  | IT_FINE => 0 < k /\ (g = Some GI1 \/ (g = Some GI0 /\ 1 <= nsw c 0))
  | IT_DOWN => 0 < k /\ g = Some GI0 /\ 1 < nlev c
  | IT_COARSE => 0 < k /\ (g = Some GI0 \/ g = Some GI1)
  | IT_UP => 0 < k /\ g = Some GI1
  | DONE => g = Some GE
  end.

(* a running step i of a block whose first d steps are done, in iteration k and stage sg: only the first running
   step has prev_done set (and only if a done step precedes it) *)
Record loc (d k : nat) (sg : stage) (i : nat) (st : step) : Prop := mkLoc {
  l_stage : st_stage st = sg;
  l_iter : st_iter st = k;
  l_done : st_done st = false;
  l_pd : st_prev_done st = (i =? d) && (0 <? d);
  l_first : st_first st = (i =? 0);
  l_last : st_last st = (i =? n - 1);
  l_tags : length (st_tags st) = nlev c;
  l_unl : length (st_unlocked st) = nlev c }.

Definition gmon (i : nat) (s : bstate) : option gstate := grun (Some GA0) (hproj i (tr s)).

(* block invariant: the done steps are the first d, their callbacks form an accepted word and they stopped by
   iteration k (all in k under all_to_done, where the steps finish together); the others run in lockstep *)
Record Inv (d k : nat) (sg : stage) (s : bstate) : Prop := mkInv {
  inv_len : length (ms s) = n;
  inv_d : d <= n;
  inv_done : forall i, i < d ->
     let st := nth i (ms s) dummy_step in
     st_stage st = DONE /\ st_done st = true /\ gmon i s = Some GE /\ st_iter st <= k /\
     (all_to_done c = true -> st_iter st = k);
  inv_run : forall i, d <= i < n ->
     let st := nth i (ms s) dummy_step in
     loc d k sg i st /\ unl_ok sg (st_unlocked st) /\ g_ok sg k (gmon i s);
  inv_a2d : all_to_done c = true -> d = 0 \/ d = n;
  inv_sg : sg <> DONE }.

Lemma loc_core d k sg i a b : core_eq a b -> loc d k sg i a -> loc d k sg i b.
Proof.
  intros (E1 & E2 & E3 & E4 & E5 & E6 & E7 & E8 & E9) [H1 H2 H3 H4 H5 H6 H7 H8].
  constructor; congruence.
Qed.

Lemma sdoes_recv_loc d k sg l msl i st : loc d k sg i st -> d <= i ->
  (d < i -> nth l (st_tags (nth (i - 1) msl dummy_step)) None = Some (l, k, i - 1)) ->
  sdoes (recv_full l msl i st) st [].
Proof.
  intros L Hd H. apply sdoes_recv; intros Hp Hf. rewrite (l_pd L) in Hp; rewrite (l_first L) in Hf.
  destruct i; [lia|]; simpl. rewrite (l_iter L), <- (Nat.sub_0_r i). apply H; lia.
Qed.

Lemma snd_eff_tag d k sg l i st : loc d k sg i st -> l < nlev c -> i + 1 < n ->
  nth l (st_tags (snd_eff l i st)) None = Some (l, k, i).
Proof.
  intros L Hl Hi. unfold snd_eff. rewrite (l_last L). replace (i =? n - 1) with false by lia; simpl.
  rewrite nth_upd, (l_tags L), (l_iter L), Nat.eqb_refl. replace (l <? nlev c) with true by lia; auto.
Qed.

Lemma Inv_view d k sg s i : Inv d k sg s -> i < n ->
  let st := nth i (ms s) dummy_step in
  (i < d /\ st_stage st = DONE /\ st_done st = true) \/ (d <= i /\ st_stage st = sg /\ st_done st = false).
Proof.
  intros I Hi. destruct (Nat.ltb_spec i d) as [H|H]; [left|right]; split; auto.
  - destruct (inv_done I H) as (A & B & _); auto.
  - destruct (inv_run I (i := i)) as (A & _); [lia|]. split; [apply (l_stage A)|apply (l_done A)].
Qed.

Lemma running_inv d k sg s : Inv d k sg s -> running (ms s) = seq d (n - d).
Proof.
  intros I. unfold running. rewrite (inv_len I). pose proof (inv_d I). pose proof (inv_sg I).
  replace n with (d + (n - d)) at 1 by lia.
  rewrite seq_app, filter_app, (@filter_seq_const _ false), (@filter_seq_const _ true); auto; intros i Hi.
  - destruct (Inv_view I (i := i)) as [(X & _)|(_ & -> & _)]; try lia. destruct sg; simpl; congruence.
  - destruct (Inv_view I (i := i)) as [(_ & -> & _)|(X & _)]; auto; lia.
Qed.

(* pointwise relation: iteration, done flags, first/last and the sizes kept, stage mapped by sgf, unlocked grows
   (levels < p get unlocked), hooks hs; tags, sweep counters and force_done are free *)
Definition RC (sgf : stage -> stage) (p : nat) (hs : list hook) : srel := fun _ a b h =>
  st_stage b = sgf (st_stage a) /\ st_iter b = st_iter a /\ st_done b = st_done a /\
  st_prev_done b = st_prev_done a /\ st_first b = st_first a /\ st_last b = st_last a /\
  length (st_tags b) = length (st_tags a) /\ length (st_unlocked b) = length (st_unlocked a) /\
  (forall l, nth l (st_unlocked a) false = true -> nth l (st_unlocked b) false = true) /\
  (forall l, l < p -> l < length (st_unlocked a) -> nth l (st_unlocked b) false = true) /\
  h = hs.

Lemma RC_refl j a : RC id 0 [] j a a [].
Proof. unfold RC; repeat split; auto; intros; lia. Qed.

Lemma RC_comp f1 p1 h1 f2 p2 h2 j a b h :
  rcomp (RC f1 p1 h1) (RC f2 p2 h2) j a b h -> RC (fun x => f2 (f1 x)) (Nat.max p1 p2) (h1 ++ h2) j a b h.
Proof.
  intros (m & x1 & x2 & (A1 & A2 & A3 & A4 & A5 & A6 & A7 & A8 & A9 & A10 & ->)
                     & (B1 & B2 & B3 & B4 & B5 & B6 & B7 & B8 & B9 & B10 & ->) & ->).
  unfold RC. rewrite B1, A1, B2, B3, B4, B5, B6, B7, B8. repeat split; auto.
  intros l Hl Hl'. destruct (Nat.ltb_spec l p2).
  - apply B10; auto. rewrite A8; auto.
  - apply B9, A10; auto. clear - Hl H. lia.
Qed.

Lemma RC_ext f1 p1 h1 f3 p3 h3 j a b h :
  (forall x, f3 x = f1 x) -> p3 <= p1 -> h3 = h1 -> RC f1 p1 h1 j a b h -> RC f3 p3 h3 j a b h.
Proof.
  intros Hf Hp -> (A1 & A2 & A3 & A4 & A5 & A6 & A7 & A8 & A9 & A10 & ->); unfold RC; repeat split; auto.
  - rewrite Hf; auto.
  - intros; apply A10; auto; lia.
Qed.

Lemma RC_core_eq j a b hs : core_eq a b -> RC id 0 hs j a b hs.
Proof.
  intros (E1 & E2 & E3 & E4 & E5 & E6 & E7 & E8 & E9); unfold RC; rewrite E8; repeat split; auto.
  intros; lia.
Qed.

Lemma RC_set_stage sg' p hs j a b : RC id p hs j a b hs -> RC (fun _ => sg') p hs j a (set_stage sg' b) hs.
Proof. intros (A1 & A); split; auto. Qed.

Lemma RC_unlock m hs j st : (forall l, l < m -> nth l (st_unlocked st) false = true) ->
  RC id (S m) hs j st (set_unlocked (upd m true (st_unlocked st)) st) hs.
Proof.
  intros Hu; unfold RC; simpl; repeat split; auto.
  - apply upd_length.
  - intros l Hl. rewrite nth_upd. destruct ((l =? m) && (m <? length (st_unlocked st))); auto.
  - intros l Hl Hl'. rewrite nth_upd. destruct (Nat.eqb_spec l m) as [->|N]; simpl.
    + replace (m <? length (st_unlocked st)) with true by lia; auto.
    + apply Hu; lia.
Qed.

Lemma loc_RC d k sg i f p hs a b h :
  RC f p hs i a b h -> loc d k sg i a -> loc d k (f sg) i b.
Proof.
  intros (A1 & A2 & A3 & A4 & A5 & A6 & A7 & A8 & A9 & A10 & ->) [H1 H2 H3 H4 H5 H6 H7 H8].
  constructor; congruence.
Qed.

Lemma RC_unlocked f p hs j a b h q : RC f p hs j a b h ->
  (forall l, l < q -> l < length (st_unlocked a) -> nth l (st_unlocked a) false = true) ->
  forall l, l < Nat.max q p -> l < length (st_unlocked a) -> nth l (st_unlocked b) false = true.
Proof.
  intros (_ & _ & _ & _ & _ & _ & _ & _ & A9 & A10 & _) Hq l Hl Hl'.
  destruct (Nat.ltb_spec l p); [apply A10|apply A9, Hq]; auto; lia.
Qed.

Lemma RC_hooks f p hs j a b h : RC f p hs j a b h -> h = hs.
Proof. intros H; apply H. Qed.

Definition running_ok (d k : nat) (sg : stage) (s : bstate) : Prop :=
  length (ms s) = n /\ forall i, d <= i < n ->
    let st := nth i (ms s) dummy_step in loc d k sg i st /\ unl_ok sg (st_unlocked st).

Lemma Inv_running_ok d k sg s : Inv d k sg s -> running_ok d k sg s.
Proof. intros I; split; [apply (inv_len I)|]. intros i Hi; destruct (inv_run I Hi) as (A & B & _); auto. Qed.

Lemma nodup_run d : NoDup (seq d (n - d)).
Proof. apply seq_NoDup. Qed.

(* running steps satisfy the local invariant and have levels < p unlocked *)
Definition rok (d k : nat) (sg : stage) (p : nat) (s : bstate) : Prop :=
  length (ms s) = n /\ forall i, d <= i < n ->
    let st := nth i (ms s) dummy_step in
    loc d k sg i st /\ forall l, l < p -> l < nlev c -> nth l (st_unlocked st) false = true.

Definition lp (d k : nat) (sg : stage) (i : nat) (st : step) : Prop := loc d k sg i st.

Lemma rok_step d k sg p f q hs s s' :
  rok d k sg p s -> pw_rel (seq d (n - d)) (RC f q hs) s s' -> rok d k (f sg) (Nat.max p q) s'.
Proof.
  intros (L & H) (L' & U & C); split; [congruence|].
  intros i Hi. destruct (C i) as (h & r & t); [rewrite inb_seq; lia|lia|]. destruct (H i Hi) as (A & B).
  split; [eapply loc_RC; eauto|].
  intros l Hl Hn. rewrite <- (l_unl A) in Hn. apply (RC_unlocked r (q := p)); auto.
  intros l0 H0 H1. apply B; auto. rewrite <- (l_unl A); auto.
Qed.

Lemma rok_weaken d k sg p p' s : p' <= p -> rok d k sg p s -> rok d k sg p' s.
Proof. intros Hp (L & H); split; auto. intros i Hi; destruct (H i Hi) as (A & B); split; auto. intros; apply B; auto; lia. Qed.

Definition unl_count (sg : stage) : nat :=
  match sg with SPREAD | DONE => 0 | IT_COARSE | IT_UP => nlev c | _ => 1 end.

Lemma unl_ok_lev sg u : 1 <= nlev c ->
  (unl_ok sg u <-> forall l, l < unl_count sg -> l < nlev c -> nth l u false = true).
Proof.
  intros Hn.
  assert (H0 : unl0 u <-> forall l, l < 1 -> l < nlev c -> nth l u false = true).
  { split; [intros H [|l]; auto; lia|intros H; apply H; lia]. }
  destruct sg; simpl; auto; try (split; auto; intros; lia); split; auto; intros H l Hl; auto.
Qed.

Lemma rok_of_Inv d k sg s : Inv d k sg s -> 1 <= nlev c -> rok d k sg (unl_count sg) s.
Proof.
  intros I Hn. split; [apply (inv_len I)|]. intros i Hi. destruct (inv_run I Hi) as (A & B & _).
  split; auto. apply unl_ok_lev; auto.
Qed.

(* Hoare triples for block functions: started with the running steps in the local invariant and levels < p
   unlocked, F returns normally, acts on every running step as RC f _ hs, and leaves levels < p' unlocked *)
Definition runs d k sg p (F : bstate -> res) (f : stage -> stage) p' hs : Prop :=
  forall s, rok d k sg p s ->
  exists s', F s = Ok s' /\ pw_rel (seq d (n - d)) (RC f 0 hs) s s' /\ rok d k (f sg) p' s'.

Lemma runs_intro d k sg p F f q p' hs :
  (forall s, rok d k sg p s -> exists s', F s = Ok s' /\ pw_rel (seq d (n - d)) (RC f q hs) s s') ->
  p' <= Nat.max p q -> runs d k sg p F f p' hs.
Proof.
  intros H Hp s Hs. destruct (H s Hs) as (s' & E & P). exists s'; split; auto.
  split; [|eapply rok_weaken; [exact Hp|eapply rok_step; eauto]].
  eapply pw_rel_weaken; [|exact P]. intros j a b h. apply RC_ext; auto; lia.
Qed.

Lemma runs_conseq d k sg p0 p F f p1 p' hs :
  runs d k sg p0 F f p1 hs -> p0 <= p -> p' <= p1 -> runs d k sg p F f p' hs.
Proof.
  intros H Hp Hp' s Hs. destruct (H s (rok_weaken Hp Hs)) as (s' & E & P & R).
  exists s'; split; auto. split; auto. eapply rok_weaken; eauto.
Qed.

Lemma runs_ret d k sg p : runs d k sg p Ok id p [].
Proof. intros s Hs. exists s; split; auto. split; auto. apply pw_rel_refl; intros; apply RC_refl. Qed.

Lemma runs_seq d k sg p F G f1 p1 h1 f2 p2 h2 f hs :
  runs d k sg p F f1 p1 h1 -> runs d k (f1 sg) p1 G f2 p2 h2 ->
  (forall x, f x = f2 (f1 x)) -> h1 ++ h2 = hs ->
  runs d k sg p (fun s => F s >>= G) f p2 hs.
Proof.
  intros HF HG Hf Hh s Hs. destruct (HF s Hs) as (s1 & E1 & P1 & R1). destruct (HG s1 R1) as (s2 & E2 & P2 & R2).
  exists s2; rewrite E1, Hf; simpl; split; auto. split; auto.
  eapply pw_rel_weaken; [|eapply pw_rel_comp; eauto].
  intros j a b h Hc. apply RC_comp in Hc. revert Hc; apply RC_ext; auto.
Qed.

Lemma runs_for_each d k sg p A (xs : list A) (f : A -> bstate -> res) hs :
  (forall x, In x xs -> runs d k sg p (f x) id p (hs x)) ->
  runs d k sg p (for_each xs f) id p (flat_map hs xs).
Proof.
  induction xs as [|x xs IH]; intros H.
  - apply runs_ret.
  - apply (@runs_seq d k sg p (f x) (for_each xs f) id p (hs x) id p (flat_map hs xs)); auto.
    + apply H; simpl; auto.
    + apply IH; intros; apply H; simpl; auto.
Qed.

Lemma rounds d k sg p A (xs : list A) (f : A -> bstate -> res) hs :
  (forall x s, In x xs -> rok d k sg p s ->
     exists s', f x s = Ok s' /\ pw_rel (seq d (n - d)) (RC id 0 hs) s s') ->
  forall s, rok d k sg p s ->
  exists s', for_each xs f s = Ok s' /\ pw_rel (seq d (n - d)) (RC id 0 (rep hs (length xs))) s s'.
Proof.
  intros H s Hs. rewrite <- flat_map_const.
  destruct (@runs_for_each d k sg p A xs f (fun _ => hs)) with (s := s) as (s' & E & P & _); eauto.
  intros x Hx. apply runs_intro with (q := 0); [intros s0; apply H, Hx|lia].
Qed.

Lemma pw_fun_rel idxs F G s s' (R : srel) :
  pw_fun idxs F G s s' ->
  (forall j, inb j idxs = true -> j < length (ms s) ->
     R j (nth j (ms s) dummy_step) (F j (nth j (ms s) dummy_step)) (G j (nth j (ms s) dummy_step))) ->
  pw_rel idxs R s s'.
Proof.
  intros (L & N & T) H; repeat split; auto.
  - rewrite N, H0; auto.
  - rewrite T, H0, app_nil_r; auto.
  - intros j I Hj. exists (G j (nth j (ms s) dummy_step)). rewrite N, T, I; auto.
Qed.

Lemma loop_free a (P : nat -> step -> Prop) (b : nat -> step -> sres) (R : srel) s :
  length (ms s) = n ->
  (forall i, a <= i < n -> P i (nth i (ms s) dummy_step)) ->
  (forall i st, P i st -> exists st' hs, sdoes (b i st) st' hs /\ R i st st' hs) ->
  exists s', for_steps (seq a (n - a)) (fun _ i st => b i st) s = Ok s' /\ pw_rel (seq a (n - a)) R s s'.
Proof.
  intros L HP HB.
  (* a body that does not read the other steps is its own pointwise function *)
  destruct (@for_seq_pw (fun _ i st => b i st)
              (fun i st => match b i st with SOk st' _ => st' | SErr _ _ => st end)
              (fun i st => match b i st with SOk _ evs => hooks_of evs | SErr _ _ => [] end) s a (n - a))
    as (s' & E & PW).
  - intros; lia.
  - intros i s1 Hi _. destruct (HB i _ (HP i ltac:(lia))) as (st' & hs & (evs & -> & <-) & _). apply sdoes_ret.
  - exists s'; split; auto. eapply pw_fun_rel; eauto.
    intros j Hj _. rewrite inb_seq in Hj.
    destruct (HB j _ (HP j ltac:(lia))) as (st' & hs & (evs & -> & <-) & r); auto.
Qed.

Lemma runs_free d k sg p (b : nat -> step -> sres) f q p' hs :
  (forall i st, loc d k sg i st -> (forall l, l < p -> l < nlev c -> nth l (st_unlocked st) false = true) ->
     exists st', sdoes (b i st) st' hs /\ RC f q hs i st st' hs) ->
  p' <= Nat.max p q -> runs d k sg p (for_steps (seq d (n - d)) (fun _ i st => b i st)) f p' hs.
Proof.
  intros H Hp. apply runs_intro with (q := q); auto. intros s (L & Hs).
  apply loop_free with (P := fun i st => loc d k sg i st /\
                                forall l, l < p -> l < nlev c -> nth l (st_unlocked st) false = true); auto.
  intros i st (A & B). destruct (H i st A B) as (st' & D & r). eauto.
Qed.

Lemma runs_core d k sg p (b : nat -> step -> sres) hs :
  (forall i st, (forall l, l < p -> l < nlev c -> nth l (st_unlocked st) false = true) ->
     exists st', sdoes (b i st) st' hs /\ core_eq st st') ->
  runs d k sg p (for_steps (seq d (n - d)) (fun _ i st => b i st)) id p hs.
Proof.
  intros H. apply runs_free with (q := 0); [|lia].
  intros i st _ Hu. destruct (H i st Hu) as (st' & D & Hc). exists st'; split; auto. apply RC_core_eq, Hc.
Qed.

(* a body with one receive on level l whose predecessor has sent on l earlier in the same loop *)
Lemma runs_recv d k sg p l (b : body) F f q p' hs :
  (forall msl i st, loc d k sg i st -> d <= i ->
     (forall u, u < p -> u < nlev c -> nth u (st_unlocked st) false = true) ->
     (d < i -> nth l (st_tags (nth (i - 1) msl dummy_step)) None = Some (l, k, i - 1)) ->
     sdoes (b msl i st) (F i st) hs) ->
  (forall i st, loc d k sg i st -> i + 1 < n -> nth l (st_tags (F i st)) None = Some (l, k, i)) ->
  (forall i st, loc d k sg i st -> RC f q hs i st (F i st) hs) ->
  p' <= Nat.max p q -> runs d k sg p (for_steps (seq d (n - d)) b) f p' hs.
Proof.
  intros HB HT HR Hp. apply runs_intro with (q := q); auto. intros s Hs.
  destruct (@for_seq_pw b F (fun _ _ => hs) s d (n - d)) as (s' & E & PW).
  - intros i Hi. rewrite (proj1 Hs). clear - Hi; lia.
  - intros i s1 Hi (_ & N1 & _). assert (Hi' : d <= i < n) by (clear - Hi; lia).
    destruct (proj2 Hs i Hi') as (A & B). apply HB; auto; [apply Hi'|].
    intros Hd. rewrite N1, inb_seq. replace ((d <=? i - 1) && _) with true by (clear - Hi Hd; lia).
    destruct (proj2 Hs (i - 1)) as (A' & _); [clear - Hi Hd; lia|]. apply HT; auto; clear - Hi Hd; lia.
  - exists s'; split; auto. eapply pw_fun_rel; eauto.
    intros j Hj _. rewrite inb_seq in Hj. apply HR, (proj2 Hs). clear - Hj; lia.
Qed.

Lemma sdoes_sendrecv d k sg l msl i st : loc d k sg i st -> d <= i ->
  (d < i -> nth l (st_tags (nth (i - 1) msl dummy_step)) None = Some (l, k, i - 1)) ->
  sdoes (b_sendrecv l msl i st) (snd_eff l i st) [].
Proof.
  intros L Hi Hp. unfold b_sendrecv.
  eapply sdoes_bind; [apply sdoes_send|eapply sdoes_recv_loc; eauto; eapply loc_core; eauto; apply snd_eff_core|auto].
Qed.

Lemma runs_sendrecv d k sg p l : l < nlev c -> runs d k sg p (for_steps (seq d (n - d)) (b_sendrecv l)) id p [].
Proof.
  intros Hl. apply runs_recv with (l := l) (F := snd_eff l) (q := 0); [| | |lia].
  - intros; eapply sdoes_sendrecv; eauto.
  - intros; eapply snd_eff_tag; eauto.
  - intros; apply RC_core_eq, snd_eff_core.
Qed.

Lemma runs_sweep d k sg p l sgx : l < p -> l < nlev c ->
  runs d k sg p (for_steps (seq d (n - d)) (b_sweep l sgx)) id p [PreSweep; PostSweep].
Proof.
  intros Hl Hn. apply (@runs_core d k sg p (fun _ st => sweep_block l sgx st)).
  intros i st Hu. exists st; split; [apply sdoes_sweep_block; auto|apply core_eq_refl].
Qed.

Lemma runs_set_stage d k sg p sg' : runs d k sg p (for_steps (seq d (n - d)) (b_set_stage sg')) (fun _ => sg') p [].
Proof.
  apply (@runs_free d k sg p (fun _ st => SOk (set_stage sg' st) []) (fun _ => sg') 0); [|lia].
  intros i st _ _. exists (set_stage sg' st); split; [exact (sdoes_ret _ _)|apply RC_set_stage, RC_core_eq, core_eq_refl].
Qed.

Lemma runs_restrict d k sg a : S a < nlev c ->
  runs d k sg (S a) (for_steps (seq d (n - d)) (b_transfer a (S a))) id (S (S a)) [].
Proof.
  intros Ha. apply (@runs_free d k sg (S a) (fun _ st => transfer a (S a) st) id (S (S a))); [|lia].
  intros i st L Hu. eexists; split; [apply sdoes_restrict; apply Hu; lia|].
  apply RC_unlock. intros; apply Hu; lia.
Qed.

Lemma runs_prolong d k sg p a b : a < p -> a < nlev c -> b <= a ->
  runs d k sg p (for_steps (seq d (n - d)) (b_transfer a b)) id p [].
Proof.
  intros Ha Hn Hb. apply (@runs_core d k sg p (fun _ st => transfer a b st)).
  intros i st Hu. exists st; split; [apply sdoes_prolong; auto|apply core_eq_refl].
Qed.

Lemma runs_repeat d k sg p a m (F : bstate -> res) hs :
  runs d k sg p F id p hs -> runs d k sg p (for_each (seq a m) (fun _ => F)) id p (rep hs m).
Proof.
  intros H. pose proof (@runs_for_each d k sg p nat (seq a m) (fun _ => F) (fun _ => hs) (fun _ _ => H)) as R.
  rewrite flat_map_const, seq_length in R. exact R.
Qed.

Lemma mid_sweeps_ok d k sg p l sgx : l < p -> l < nlev c ->
  runs d k sg p (mid_sweeps c (seq d (n - d)) l sgx) id p (sw_hooks (nsw c l)).
Proof.
  intros Hl Hn. apply runs_repeat.
  eapply runs_seq; [apply runs_sendrecv|apply runs_sweep| |]; auto.
Qed.

Lemma spread_ok d k sg :
  runs d k sg 0 (spread c (seq d (n - d))) (fun _ => if 1 <? nlev c then PREDICT else IT_CHECK) 1 [PreStep].
Proof.
  apply runs_free with (q := 1); [|lia].
  intros i st L _. eexists; split; [exact (sdoes_ret _ _)|].
  apply RC_set_stage, RC_unlock. intros; lia.
Qed.

Lemma it_fine_ok d k sg : 1 <= nlev c ->
  runs d k sg 1 (it_fine c (seq d (n - d))) (fun _ => IT_CHECK) 1 (sw_hooks (nsw c 0)).
Proof.
  intros Hn. unfold it_fine.
  assert (Hset : forall g, runs d k sg 1 (for_steps (seq d (n - d)) (fun _ _ st => SOk (set_sweeps (g st) st) [])) id 1 []).
  { intros g. apply (@runs_core d k sg 1 (fun _ st => SOk (set_sweeps (g st) st) [])).
    intros i st _. eexists; split; [exact (sdoes_ret _ _)|repeat split]. }
  eapply runs_seq; [eapply runs_seq; [apply Hset|apply runs_repeat| |]|apply runs_set_stage| |]; auto.
  - eapply runs_seq; [eapply runs_seq; [apply Hset|apply runs_sendrecv| |]|apply runs_sweep| |]; auto.
  - apply app_nil_r.
Qed.

Lemma it_down_levels d k sg : forall m a, a + m < nlev c ->
  exists h, runs d k sg (S a)
    (for_each (seq a m) (fun l s => mid_sweeps c (seq d (n - d)) l IT_DOWN s >>=
                                    for_steps (seq d (n - d)) (b_transfer l (S l)))) id (S (a + m)) (sw_hooks h).
Proof.
  induction m; intros a Ha.
  - exists 0. rewrite Nat.add_0_r. apply runs_ret.
  - destruct (IHm (S a)) as (h & IH); [lia|]. exists (nsw c a + h).
    apply (@runs_seq d k sg (S a) _ _ id (S (S a)) (sw_hooks (nsw c a)) id (S (a + S m)) (sw_hooks h)); auto.
    + eapply runs_seq; [apply mid_sweeps_ok; lia|apply runs_restrict; lia|auto|apply app_nil_r].
    + rewrite <- Nat.add_succ_comm. exact IH.
    + symmetry; apply rep_add.
Qed.

Lemma it_down_ok d k sg : 2 <= nlev c ->
  exists h, runs d k sg 1 (it_down c (seq d (n - d))) (fun _ => IT_COARSE) (nlev c) (sw_hooks h).
Proof.
  intros Hn. unfold it_down. replace (nlev c <? 2) with false by lia.
  destruct (@it_down_levels d k sg (nlev c - 2) 1) as (h & H); [lia|]. exists h.
  eapply runs_seq; [eapply runs_seq; [apply runs_restrict; lia|exact H| |]|
                    eapply runs_conseq; [apply runs_set_stage|auto|lia]| |]; auto.
  apply app_nil_r.
Qed.

Lemma it_coarse_ok d k sg : 1 <= nlev c ->
  runs d k sg (nlev c) (it_coarse c (seq d (n - d))) (fun _ => if 1 <? nlev c then IT_UP else IT_CHECK) (nlev c)
       [PreSweep; PostSweep].
Proof.
  intros Hn. unfold it_coarse. set (lc := nlev c - 1). set (sg' := if 1 <? nlev c then IT_UP else IT_CHECK).
  apply runs_recv with (l := lc) (F := fun i st => set_stage sg' (snd_eff lc i st)) (q := 0); [| | |lia].
  - intros msl i st L Hi Hu Hp.
    eapply sdoes_bind; [eapply sdoes_recv_loc; eauto|
      eapply sdoes_bind; [apply sdoes_sweep_block, Hu; lia|
        eapply sdoes_bind; [apply sdoes_send|exact (sdoes_ret _ _)|]|]|]; reflexivity.
  - intros; simpl; eapply snd_eff_tag; eauto; lia.
  - intros; apply RC_set_stage, RC_core_eq, snd_eff_core.
Qed.

Lemma it_up_ok d k sg :
  exists h, runs d k sg (nlev c) (it_up c (seq d (n - d))) (fun _ => IT_FINE) (nlev c) (sw_hooks h).
Proof.
  unfold it_up. set (g := fun l => if 0 <? l - 1 then nsw c (l - 1) else 0).
  exists (list_sum (map g (rev (seq 1 (nlev c - 1))))). unfold sw_hooks. rewrite <- rep_flat.
  eapply runs_seq; [apply runs_for_each|apply runs_set_stage|auto|apply app_nil_r].
  intros l Hl. apply in_rev, in_seq in Hl.
  eapply runs_seq; [apply runs_prolong; lia| |auto|reflexivity].
  unfold g. destruct (0 <? l - 1) eqn:E; [apply mid_sweeps_ok; lia|apply runs_ret].
Qed.

Lemma fold_restrict_ok : forall m a st evs0,
  length (st_unlocked st) = nlev c -> (forall l, l <= a -> nth l (st_unlocked st) false = true) ->
  a + m < nlev c ->
  exists st', sdoes (fold_left (fun r l => sbind r (transfer (l - 1) l)) (seq (S a) m) (SOk st evs0)) st' (hooks_of evs0)
              /\ RC id (S (a + m)) [] 0 st st' [].
Proof.
  induction m; intros a st evs0 Hlen Hu Ha; simpl.
  - exists st; split; [apply sdoes_ret|]. unfold RC; repeat split; auto. intros; apply Hu; lia.
  - rewrite Nat.sub_0_r. destruct (sdoes_restrict a st) as (e & -> & He); [apply Hu; lia|].
    pose proof (@RC_unlock (S a) [] 0 st) as R1. specialize (R1 ltac:(intros; apply Hu; lia)).
    destruct (IHm (S a) (set_unlocked (upd (S a) true (st_unlocked st)) st) (evs0 ++ e)) as (st' & D & R); simpl; try lia.
    + rewrite upd_length; auto.
    + intros l Hl. apply (RC_unlocked R1 (q := 0)); try lia.
    + exists st'; split; [rewrite hooks_of_app, He, app_nil_r in D; exact D|].
      assert (Hc : rcomp (RC id (S (S a)) []) (RC id (S (S a + m)) []) 0 st st' []) by (eexists; exists [], []; eauto).
      apply RC_comp in Hc. revert Hc; apply RC_ext; auto; lia.
Qed.

Lemma fold_prolong_ok : forall ls st evs0,
  (forall l, In l ls -> nth l (st_unlocked st) false = true /\ 1 <= l) ->
  sdoes (fold_left (fun r l => sbind r (transfer l (l - 1))) ls (SOk st evs0)) st (hooks_of evs0).
Proof.
  induction ls as [|a ls IH]; intros st evs0 H; simpl.
  - apply sdoes_ret.
  - destruct (H a (or_introl eq_refl)) as (Hu & Ha).
    destruct (@sdoes_prolong a (a - 1) st) as (e & -> & He); auto; try lia.
    replace (hooks_of evs0) with (hooks_of (evs0 ++ e)) by (rewrite hooks_of_app, He; apply app_nil_r).
    apply IH. intros l Hl; apply H; simpl; auto.
Qed.

Lemma loop_quiet d a (b : body) F s :
  d <= a -> length (ms s) = n ->
  (forall i s1, a <= i < n -> pw_fun (seq a (i - a)) F (fun _ _ => []) s s1 ->
     sdoes (b (ms s1) i (nth i (ms s) dummy_step)) (F i (nth i (ms s) dummy_step)) []) ->
  (forall i st, core_eq st (F i st)) ->
  exists s', for_steps (seq a (n - a)) b s = Ok s' /\ pw_fun (seq a (n - a)) F (fun _ _ => []) s s' /\
             pw_rel (seq d (n - d)) (RC id 0 []) s s'.
Proof.
  intros Ha L HB HF.
  destruct (@for_seq_pw b F (fun _ _ => []) s a (n - a)) as (s' & E & PW);
    [intros; lia|intros; apply HB; auto; lia|].
  exists s'; split; auto. split; auto. destruct PW as (L' & N & T). split; [|split]; auto.
  - intros j Hj. rewrite N, T. rewrite inb_seq in *. replace ((a <=? j) && _) with false by lia.
    rewrite app_nil_r; auto.
  - intros j _ _. exists []. rewrite N, T.
    destruct (inb j (seq a (n - a))); rewrite app_nil_r; split; auto; [apply RC_core_eq, HF|apply RC_refl].
Qed.

(* burn-in round q: the steps from d+q on sweep and send on the coarsest level, then those after d+q receive *)
Lemma burnin_round_ok d k sg q : 1 <= nlev c ->
  runs d k sg (nlev c) (burnin_round c (seq d (n - d)) q) id (nlev c) [].
Proof.
  intros Hn. apply runs_intro with (q := 0); [|lia].
  intros s Hs. unfold burnin_round. set (lc := nlev c - 1).
  rewrite !skipn_seq. replace (n - d - q) with (n - (d + q)) by lia.
  replace (d + S q) with (S (d + q)) by lia. replace (n - d - S q) with (n - S (d + q)) by lia.
  destruct (@loop_quiet d (d + q) (fun _ i st => sbind (update_nodes lc st) (send_full lc i)) (snd_eff lc) s)
    as (s1 & E1 & (_ & N1 & _) & P1); try lia; try apply Hs.
  - intros i s0 Hi _. destruct (proj2 Hs i) as (A & B); [lia|].
    eapply sdoes_bind; [apply sdoes_update_nodes, B; unfold lc; lia|apply sdoes_send|auto].
  - intros; apply snd_eff_core.
  - rewrite E1; simpl. pose proof (rok_step Hs P1) as Hs1.
    destruct (@loop_quiet d (S (d + q)) (fun msl i st => recv_full lc msl i st) (fun _ st => st) s1)
      as (s2 & E2 & _ & P2); try lia; try apply Hs1.
    + intros i s0 Hi (_ & N2 & _). destruct (proj2 Hs1 i) as (A & _); [lia|].
      eapply sdoes_recv_loc; eauto; [lia|]. intros _. rewrite N2.
      replace (if inb (i - 1) _ then _ else _) with (nth (i - 1) (ms s1) dummy_step) by (destruct (inb (i - 1) _); auto).
      rewrite N1, inb_seq. replace ((d + q <=? i - 1) && _) with true by lia.
      destruct (proj2 Hs (i - 1)) as (A' & _); [lia|]. eapply snd_eff_tag; eauto; unfold lc; lia.
    + intros; apply core_eq_refl.
    + exists s2; split; auto. eapply pw_rel_weaken; [|exact (pw_rel_comp P1 P2)].
      intros j a b h Hc. apply RC_comp in Hc. exact Hc.
Qed.

Definition ptype_ok (p : ptype) : Prop := p = PNone \/ p = PFineOnly \/ p = PBurnin.

Lemma runs_update0 d k sg p : 0 < p -> 1 <= nlev c ->
  runs d k sg p (for_steps (seq d (n - d)) (fun _ _ st => update_nodes 0 st)) id p [].
Proof.
  intros Hp Hn. apply (@runs_core d k sg p (fun _ st => update_nodes 0 st)).
  intros i st Hu. exists st; split; [apply sdoes_update_nodes, Hu; lia|apply core_eq_refl].
Qed.

Lemma predict_mid_ok d k sg : 1 <= nlev c -> ptype_ok (predict_type c) ->
  runs d k sg 1 (predict_mid c (seq d (n - d))) id 1 [].
Proof.
  intros Hn Hp. unfold predict_mid. destruct Hp as [-> | [-> | ->]].
  - apply runs_ret.
  - apply runs_update0; auto; lia.
  - (* burn-in: restrict down to the coarsest level, the rounds, prolong back up and exchange on the finest level, sweep *)
    assert (Hseq : forall p F G, runs d k sg p F id (nlev c) [] -> runs d k sg (nlev c) G id (nlev c) [] ->
                                 runs d k sg p (fun s => F s >>= G) id (nlev c) []).
    { intros p F G HF HG. eapply runs_seq; [exact HF|exact HG|auto|auto]. }
    eapply runs_conseq with (p1 := nlev c); [|auto|auto]. repeat apply Hseq.
    + apply runs_free with (q := nlev c); [|lia].
      intros i st L Hu. destruct (@fold_restrict_ok (nlev c - 1) 0 st []) as (st' & D & R); [| |lia|].
      * apply (l_unl L).
      * intros l Hl. apply Hu; lia.
      * exists st'; split; auto. revert R; apply RC_ext; auto; lia.
    + rewrite <- (flat_map_nil hook (seq 0 (length (seq d (n - d))))). apply runs_for_each.
      intros q _. apply burnin_round_ok; auto.
    + apply runs_recv with (l := 0) (F := snd_eff 0) (q := 0); [| | |lia].
      * intros msl i st L Hi Hu Hpr.
        eapply sdoes_bind; [apply fold_prolong_ok|apply (sdoes_sendrecv (l := 0) msl L Hi Hpr)|reflexivity].
        intros l Hl. apply in_rev, in_seq in Hl. split; [apply Hu|]; clear - Hl; lia.
      * intros; eapply snd_eff_tag; eauto; lia.
      * intros; apply RC_core_eq, snd_eff_core.
    + apply runs_update0; auto; lia.
Qed.

Lemma predict_ok d k sg : 1 <= nlev c -> ptype_ok (predict_type c) ->
  runs d k sg 1 (predict c (seq d (n - d))) (fun _ => IT_CHECK) 1 [PrePredict; PostPredict].
Proof.
  intros Hn Hp. unfold predict.
  assert (Hh : forall sg h, runs d k sg 1 (for_steps (seq d (n - d)) (fun _ _ st => SOk st [hook_ev h 0 st])) id 1 [h]).
  { intros sg0 h. apply (@runs_core d k sg0 1 (fun _ st => SOk st [hook_ev h 0 st])).
    intros i st _. exists st; split; [exact (sdoes_ret _ _)|apply core_eq_refl]. }
  eapply runs_seq; [eapply runs_seq; [eapply runs_seq; [apply Hh|apply predict_mid_ok| |]|apply Hh| |]|
                    apply runs_set_stage| |]; auto.
Qed.

Definition conv_expr (i k : nat) (fd : bool) : bool :=
  ((maxiter c <=? k) || conv o i k || fd) && negb (fcont o i k).

Lemma converged_conv_expr i st fd : converged c o i st fd = conv_expr i (st_iter st) fd.
Proof. reflexivity. Qed.

Definition post_it (k : nat) : list hook := if 0 <? k then [PostIteration] else [].

(* state after loops 1 and 2 of it_check.  Loop 2 has written status.done, which loc wants false, so the running
   steps are in the local invariant up to that field *)
Record chk2 (d k : nat) (s s2 : bstate) : Prop := mkChk2 {
  c2_len : length (ms s2) = n;
  c2_low : forall j, j < d -> nth j (ms s2) dummy_step = nth j (ms s) dummy_step /\ hproj j (tr s2) = hproj j (tr s);
  c2_run : forall j, d <= j < n -> let st := nth j (ms s2) dummy_step in
     loc d k IT_CHECK j (set_check (st_iter st) false (st_prev_done st) (st_force_done st) st) /\
     unl0 (st_unlocked st) /\ hproj j (tr s2) = hproj j (tr s) ++ post_it k /\
     exists fd, st_done st = conv_expr j k fd }.

Lemma check_loop1_ok d k sg : 1 <= nlev c -> runs d k sg 1 (check_loop1 (seq d (n - d))) id 1 [].
Proof.
  intros Hn. unfold check_loop1.
  apply runs_recv with (l := 0) (F := snd_eff 0) (q := 0); [| | |lia].
  - intros msl i st L Hi _ Hp. eapply sdoes_bind; [eapply sdoes_sendrecv; eauto|exact (sdoes_ret _ _)|reflexivity].
  - intros; eapply snd_eff_tag; eauto; lia.
  - intros; apply RC_core_eq, snd_eff_core.
Qed.

Lemma check_loop2_ok d k s :
  length (ms s) = n -> (forall i, d <= i < n -> st_iter (nth i (ms s) dummy_step) = k) ->
  exists s', check_loop2 c o (seq d (n - d)) s = Ok s' /\
    pw_rel (seq d (n - d))
      (fun j a b h => b = set_check k (conv_expr j k (st_force_done a || fdone o j k)) (st_prev_done a)
                            (st_force_done a || fdone o j k) a /\ h = post_it k) s s'.
Proof.
  intros L Hk. unfold check_loop2. apply loop_free with (P := fun i st => st_iter st = k); auto.
  intros i st E. eexists; eexists; split; [exact (sdoes_ret _ _)|]. split.
  - rewrite converged_conv_expr, E; auto.
  - unfold post_it. rewrite E. destruct (0 <? k); auto.
Qed.

Lemma it_check_12 d k s :
  Inv d k IT_CHECK s -> 1 <= nlev c ->
  exists s2, (check_loop1 (seq d (n - d)) s >>= check_loop2 c o (seq d (n - d))) = Ok s2
    /\ chk2 d k s s2.
Proof.
  intros I Hn.
  destruct (@check_loop1_ok d k IT_CHECK Hn s (rok_of_Inv I Hn)) as (s1 & E1 & P1 & R1).
  rewrite E1; simpl. pose proof (proj1 P1) as L1.
  destruct (@check_loop2_ok d k s1) as (s2 & E2 & P2).
  - rewrite L1; apply (inv_len I).
  - intros i Hi. destruct (proj2 R1 i Hi) as (A & _). apply (l_iter A).
  - exists s2; split; auto. pose proof (proj1 P2) as L2. constructor.
    + rewrite L2, L1. apply (inv_len I).
    + intros j Hj. assert (E : inb j (seq d (n - d)) = false) by (rewrite inb_seq; lia).
      destruct (pw_rel_out j P1 E), (pw_rel_out j P2 E). split; congruence.
    + intros j Hj. assert (E : inb j (seq d (n - d)) = true) by (rewrite inb_seq; lia).
      destruct (pw_rel_in P1 E) as (h1 & r1 & t1); [rewrite (inv_len I); lia|].
      destruct (pw_rel_in P2 E) as (h2 & (Eb & ->) & t2); [rewrite L1, (inv_len I); lia|].
      destruct (proj2 R1 j Hj) as ([H1 H2 H3 H4 H5 H6 H7 H8] & B).
      simpl. rewrite Eb; simpl. split; [|split; [|split]].
      * constructor; simpl; auto.
      * apply B; clear - Hn; lia.
      * rewrite t2, t1, (RC_hooks r1), app_nil_r; auto.
      * eexists; eauto.
Qed.

Section Check3.
Variables (d k : nat) (s2 : bstate).
Let run := seq d (n - d).
Let rawv (j : nat) : bool := st_done (nth j (ms s2) dummy_step).

(* loop 3 in closed form: the steps before dnew finish (without all_to_done: the leading converged ones) *)
Definition dnew : nat :=
  if all_to_done c then (if forallb rawv run then n else d) else d + lead rawv d (n - d).

(* the communicated prev_done, i.e. the new done of the step before j *)
Definition PD3 (j : nat) : bool :=
  if j <? dnew then negb (j =? d) || (0 <? d) else (j =? dnew) && (0 <? dnew).

Definition F3 (j : nat) (st : step) : step :=
  if j <? dnew then set_stage DONE (set_check (st_iter st) true (PD3 j) (st_force_done st) st)
  else set_stage (next_stage c (n - d)) (set_check (S (st_iter st)) false (PD3 j) (st_force_done st) st).
Definition G3 (j : nat) (st : step) : list hook := if j <? dnew then [PostStep] else [PreIteration].

Lemma F3_done j st : st_done (F3 j st) = (j <? dnew).
Proof. unfold F3; destruct (j <? dnew); auto. Qed.

Lemma dnew_range : d <= n -> d <= dnew <= n.
Proof.
  intros Hd. unfold dnew. pose proof (lead_le rawv (n - d) d).
  destruct (all_to_done c); [destruct (forallb rawv run)|]; lia.
Qed.

(* while loop 3 is at step i, the steps before i carry their new status, those after i the one of loop 2 *)
Lemma scan_before s s1 i j :
  Inv d k IT_CHECK s -> chk2 d k s s2 -> pw_fun (seq d (i - d)) F3 G3 s2 s1 -> d <= i -> j < i ->
  st_done (nth j (ms s1) dummy_step) = if d <=? j then j <? dnew else true.
Proof.
  intros I C2 (_ & N1 & _) Hi Hj. rewrite N1, inb_seq. destruct (Nat.leb_spec d j).
  - replace (j <? d + (i - d)) with true by lia. apply F3_done.
  - simpl. destruct (c2_low C2 (j := j)) as (-> & _); auto. apply (inv_done I); auto.
Qed.

Lemma scan_after s1 i j : pw_fun (seq d (i - d)) F3 G3 s2 s1 -> d <= i -> i < j ->
  st_done (nth j (ms s1) dummy_step) = rawv j.
Proof.
  intros (_ & N1 & _) Hi Hj. rewrite N1, inb_seq. replace (j <? d + (i - d)) with false by lia.
  rewrite andb_false_r; auto.
Qed.

(* the arithmetic of the scan: what step i reads from its predecessor is PD3 i, and the decision that follows *)
Lemma PD3_pred i : d <= n -> d <= i -> i <> 0 -> (if d <=? i - 1 then i - 1 <? dnew else true) = PD3 i.
Proof.
  intros Hd Hi Ni. pose proof (dnew_range Hd). unfold PD3.
  destruct (d <=? i - 1) eqn:E0, (i <? dnew) eqn:E; lia.
Qed.

Lemma PD3_decide i (r : bool) : d <= n -> d <= i ->
  (if i =? 0 then r else r && PD3 i) = r && ((i =? d) || (i - 1 <? dnew)).
Proof.
  intros Hd Hi. pose proof (dnew_range Hd). unfold PD3.
  destruct r, (i =? 0) eqn:E0, (i <? dnew) eqn:E1; lia.
Qed.

Lemma it_check_3 s :
  Inv d k IT_CHECK s -> chk2 d k s s2 -> d < n ->
  exists s3, check_loop3 c run s2 = Ok s3 /\ pw_fun run F3 G3 s2 s3.
Proof.
  intros I C2 Hd. unfold check_loop3. apply for_seq_pw.
  - intros i Hi. rewrite (c2_len C2); lia.
  - intros i s1 Hi PW. pose proof (dnew_range ltac:(lia)) as Hr.
    destruct (c2_run C2 (j := i)) as (Li & _); [clear - Hi; lia|].
    pose proof (l_first Li) as Hfirst; pose proof (l_pd Li) as Hpd0. simpl in Hfirst, Hpd0.
    set (st := nth i (ms s2) dummy_step) in *.
    assert (Hpd : (if st_first st then st_prev_done st
                   else st_done (nth (prev_idx (length (ms s1)) i) (ms s1) dummy_step)) = PD3 i).
    { rewrite Hfirst, Hpd0. destruct (Nat.eqb_spec i 0) as [->|Ni]; [unfold PD3; destruct (0 <? dnew) eqn:E; lia|].
      replace (prev_idx (length (ms s1)) i) with (i - 1) by (destruct i; simpl; lia).
      rewrite (scan_before I C2 PW) by lia. apply PD3_pred; [apply (inv_d I)|apply Hi|exact Ni]. }
    assert (Hd2 : (if all_to_done c
                   then forallb (fun j => if j =? i then (if st_first st then st_done st else st_done st && PD3 i)
                                          else st_done (nth j (ms s1) dummy_step)) run
                   else (if st_first st then st_done st else st_done st && PD3 i))
                  = (i <? dnew)).
    { rewrite Hfirst. change (st_done st) with (rawv i).
      rewrite (PD3_decide _ (inv_d I) (proj1 Hi)). destruct (all_to_done c) eqn:Ha.
      - destruct (forallb rawv run) eqn:A.
        + assert (Edn : dnew = n) by (unfold dnew; rewrite Ha, A; auto). rewrite Edn.
          pose proof (proj1 (forallb_forall _ _) A) as Hall. replace (i <? n) with true by lia.
          apply forallb_forall. intros j Hj. apply in_seq in Hj. destruct (Nat.eqb_spec j i) as [->|Nji].
          * rewrite (Hall i) by (apply in_seq; lia). lia.
          * destruct (Nat.ltb_spec j i).
            -- rewrite (scan_before I C2 PW), Edn by lia. destruct (d <=? j); lia.
            -- rewrite (scan_after PW) by lia. apply Hall, in_seq; lia.
        + assert (Edn : dnew = d) by (unfold dnew; rewrite Ha, A; auto). rewrite Edn.
          replace (i <? d) with false by lia. destruct (Nat.eqb_spec i d) as [->|Nid].
          * rewrite <- A. apply forallb_ext_in. intros j Hj. apply in_seq in Hj.
            destruct (Nat.eqb_spec j d) as [->|]; [destruct (rawv d); lia|apply (scan_after PW); lia].
          * apply forallb_false_in with (x := d); [apply in_seq; lia|].
            replace (d =? i) with false by lia. rewrite (scan_before I C2 PW), Edn, Nat.leb_refl by lia. lia.
      - unfold dnew. rewrite Ha. symmetry; apply lead_spec; lia. }
    cbv zeta. rewrite Hpd, Hd2. unfold F3, G3, run. rewrite seq_length.
    destruct (i <? dnew); exact (sdoes_ret _ _).
Qed.

End Check3.

Definition wf_cfg : Prop :=
  1 <= nlev c /\ (nlev c = 1 -> 1 <= nsw c 0) /\ (1 < nlev c -> ptype_ok (predict_type c)).

Lemma g_check k g : g_ok IT_CHECK k g ->
  grun g (post_it k ++ [PostStep]) = Some GE /\ grun g (post_it k ++ [PreIteration]) = Some GI0.
Proof.
  unfold g_ok, post_it. destruct k; simpl.
  - intros [-> | ->]; simpl; auto.
  - intros ->; simpl; auto.
Qed.

Lemma next_stage_ok m : 1 <= nlev c -> (nlev c = 1 -> 1 <= nsw c 0) ->
  next_stage c m <> DONE /\ (forall u, unl0 u -> unl_ok (next_stage c m) u) /\
  forall k, g_ok (next_stage c m) (S k) (Some GI0).
Proof.
  intros Hn Hnsw. unfold next_stage. destruct (Nat.ltb_spec 1 (nlev c)); [|destruct (_ || _)]; simpl;
    repeat split; try discriminate; auto; try lia.
  - right; split; auto; lia.
  - intros u Hu l Hl'. replace l with 0 by lia. auto.
Qed.

(* how many calls of pfasst lead from a stage to the end of the next it_check, at most *)
Definition rank (sg : stage) : nat :=
  match sg with
  | SPREAD => 3 | PREDICT => 2 | IT_CHECK => 1 | IT_DOWN => 5 | IT_COARSE => 4 | IT_UP => 3 | IT_FINE => 2
  | DONE => 0
  end.

Lemma rank_le5 sg : rank sg <= 5.
Proof. destruct sg; simpl; lia. Qed.

(* what one call of pfasst achieves from Inv d k sg: the whole block is done, or the invariant holds again with
   the same iteration and a stage of lower rank, or it_check has started iteration k+1 because some step had not
   converged *)
Definition stepped d k sg s' : Prop :=
  (exists sg', Inv n k sg' s') \/
  (exists d' k' sg', d <= d' < n /\ Inv d' k' sg' s' /\
     ((k' = k /\ rank sg' < rank sg) \/
      (sg = IT_CHECK /\ k' = S k /\ ~ (forall i fd, d <= i < n -> conv_expr i k fd = true)))).

Lemma stage_steps d k sg s F f p' hs sg' :
  Inv d k sg s -> 1 <= nlev c -> d < n -> runs d k sg (unl_count sg) F f p' hs ->
  f sg = sg' -> sg' <> DONE -> unl_count sg' <= p' -> rank sg' < rank sg ->
  (forall g, g_ok sg k g -> g_ok sg' k (grun g hs)) ->
  exists s', F s = Ok s' /\ stepped d k sg s'.
Proof.
  intros I Hn Hd HF Hf Hdn Hp Hr HG.
  destruct (HF s (rok_of_Inv I Hn)) as (s' & E & P & R). exists s'; split; auto.
  right. exists d, k, sg'. split; [lia|]. split; auto.
  constructor; auto.
  - rewrite (proj1 P); apply (inv_len I).
  - apply (inv_d I).
  - intros i Hi. destruct (pw_rel_out i P) as (E1 & E2); [rewrite inb_seq; lia|].
    unfold gmon; simpl; rewrite E1, E2. apply (inv_done I Hi).
  - intros i Hi. destruct (pw_rel_in (j := i) P) as (h & r & t); [rewrite inb_seq; lia|rewrite (inv_len I); lia|].
    destruct (inv_run I Hi) as (_ & _ & G). destruct (proj2 R i Hi) as (A' & B'). rewrite Hf in A'.
    split; [|split]; auto.
    + apply unl_ok_lev; auto. intros; apply B'; auto; lia.
    + unfold gmon. rewrite t, grun_app, (RC_hooks r). apply HG, G.
  - apply (inv_a2d I).
Qed.

Lemma dnew_a2d d s2 : all_to_done c = true -> dnew d s2 = d \/ dnew d s2 = n.
Proof. intros Ha. unfold dnew. rewrite Ha. destruct (forallb _ _); auto. Qed.

Lemma dnew_conv d k s s2 : chk2 d k s s2 -> d <= n ->
  (forall i fd, d <= i < n -> conv_expr i k fd = true) -> dnew d s2 = n.
Proof.
  intros C2 Hd Hall.
  assert (Hraw : forall j, d <= j < n -> st_done (nth j (ms s2) dummy_step) = true).
  { intros j Hj. destruct (c2_run C2 Hj) as (_ & _ & _ & fd & ->). apply Hall; auto. }
  unfold dnew. destruct (all_to_done c).
  - replace (forallb _ _) with true; auto.
    symmetry; apply forallb_forall. intros j Hj. apply in_seq in Hj. apply Hraw; lia.
  - rewrite lead_all; [lia|]. intros; apply Hraw; lia.
Qed.

Lemma check_done d k s s2 s3 i :
  Inv d k IT_CHECK s -> chk2 d k s s2 -> pw_fun (seq d (n - d)) (F3 d s2) (G3 d s2) s2 s3 -> i < dnew d s2 ->
  let st := nth i (ms s3) dummy_step in
  st_stage st = DONE /\ st_done st = true /\ gmon i s3 = Some GE /\ st_iter st <= k /\ (d <= i -> st_iter st = k).
Proof.
  intros I C2 (_ & N3 & T3) Hi. pose proof (dnew_range s2 (inv_d I)) as Hd'.
  unfold gmon. simpl. rewrite N3, T3, inb_seq. unfold F3, G3. destruct (Nat.ltb_spec i d) as [Hid|Hid].
  - replace (d <=? i) with false by lia. simpl. destruct (c2_low C2 Hid) as (-> & ->). rewrite app_nil_r.
    destruct (inv_done I Hid) as (A1 & A2 & A3 & A4 & _). repeat split; auto. lia.
  - replace ((d <=? i) && (i <? d + (n - d))) with true by lia. replace (i <? dnew d s2) with true by lia.
    destruct (c2_run C2 (j := i)) as (Li & _ & -> & _); [lia|].
    destruct (inv_run I (i := i)) as (_ & _ & G); [lia|].
    pose proof (l_iter Li) as Hk; simpl in Hk. simpl. rewrite <- app_assoc, grun_app.
    repeat split; auto; try lia. apply (@g_check k _ G).
Qed.

Lemma check_running d k s s2 s3 i :
  Inv d k IT_CHECK s -> 1 <= nlev c -> (nlev c = 1 -> 1 <= nsw c 0) -> chk2 d k s s2 ->
  pw_fun (seq d (n - d)) (F3 d s2) (G3 d s2) s2 s3 -> dnew d s2 <= i < n ->
  let st := nth i (ms s3) dummy_step in
  loc (dnew d s2) (S k) (next_stage c (n - d)) i st /\ unl_ok (next_stage c (n - d)) (st_unlocked st) /\
  g_ok (next_stage c (n - d)) (S k) (gmon i s3).
Proof.
  intros I Hn Hnsw C2 (_ & N3 & T3) Hi. pose proof (dnew_range s2 (inv_d I)) as Hd'.
  destruct (next_stage_ok (n - d) Hn Hnsw) as (_ & Nunl & Ng).
  unfold gmon. simpl. rewrite N3, T3, inb_seq. unfold F3, G3, PD3.
  replace ((d <=? i) && (i <? d + (n - d))) with true by lia. replace (i <? dnew d s2) with false by lia.
  destruct (c2_run C2 (j := i)) as (Li & Hu & -> & _); [lia|].
  destruct (inv_run I (i := i)) as (_ & _ & G); [lia|].
  split; [|split].
  - destruct Li as [H1 H2 H3 H4 H5 H6 H7 H8]. simpl in *. constructor; simpl; auto.
  - apply Nunl; auto.
  - rewrite <- app_assoc, grun_app. fold (gmon i s). destruct (@g_check k _ G) as (_ & ->). apply Ng.
Qed.

Lemma it_check_ok d k s :
  Inv d k IT_CHECK s -> d < n -> wf_cfg ->
  exists s', it_check c o (seq d (n - d)) s = Ok s' /\ stepped d k IT_CHECK s'.
Proof.
  intros I Hd (Hn & Hnsw & _). unfold it_check.
  destruct (it_check_12 I Hn) as (s2 & E2 & C2). rewrite E2; simpl.
  destruct (@it_check_3 d k s2 s I C2 Hd) as (s3 & E3 & P3).
  rewrite E3. exists s3. split; auto.
  pose proof (dnew_range s2 (inv_d I)) as Hd'.
  assert (Hlen3 : length (ms s3) = n) by (destruct P3 as (-> & _); apply (c2_len C2)).
  destruct (next_stage_ok (n - d) Hn Hnsw) as (Nsg & _).
  destruct (Nat.eq_dec (dnew d s2) n) as [Hdn|Hdn]; [left; exists IT_CHECK|right].
  - (* everything finished *)
    constructor; auto; try discriminate.
    + intros i Hi. rewrite <- Hdn in Hi. destruct (check_done I C2 P3 Hi) as (A1 & A2 & A3 & A4 & A5). repeat split; auto.
      intros Ha. destruct (inv_a2d I Ha); [apply A5|]; lia.
    + intros i Hi; lia.
  - (* some steps go on, and not all had converged *)
    exists (dnew d s2), (S k), (next_stage c (n - d)). split; [lia|].
    split; [|right; repeat split; auto; intros Hall; apply Hdn, (dnew_conv C2 (inv_d I) Hall)].
    constructor; auto; try lia.
    + intros i Hi. destruct (check_done I C2 P3 Hi) as (A1 & A2 & A3 & A4 & A5). repeat split; auto.
      intros Ha. destruct (dnew_a2d d s2 Ha), (inv_a2d I Ha); lia.
    + intros i Hi. apply (check_running I Hn Hnsw C2 P3 Hi).
    + intros Ha. destruct (dnew_a2d d s2 Ha), (inv_a2d I Ha); lia.
Qed.

Lemma all_same_const (f : nat -> stage) sg l : (forall i, In i l -> f i = sg) -> all_same (map f l) = true.
Proof.
  induction l as [|a l IH]; simpl; auto. intros H. destruct l as [|b l]; simpl; auto.
  specialize (IH (fun i Hi => H i (or_intror Hi))). simpl in IH.
  rewrite (H a), (H b) by (simpl; auto). rewrite (H b) in IH by (simpl; auto).
  replace (stage_eqb sg sg) with true by (destruct sg; auto). simpl. exact IH.
Qed.

Lemma stages_inv d k sg s : Inv d k sg s -> d < n ->
  all_same (map (fun i => st_stage (nth i (ms s) dummy_step)) (running (ms s))) = true /\
  exists r, map (fun i => st_stage (nth i (ms s) dummy_step)) (running (ms s)) = sg :: r.
Proof.
  intros I Hd. rewrite (running_inv I).
  assert (Hst : forall i, In i (seq d (n - d)) -> st_stage (nth i (ms s) dummy_step) = sg).
  { intros i Hi. apply in_seq in Hi. destruct (Inv_view I (i := i)) as [(X & _)|(_ & X & _)]; auto; lia. }
  split; [apply all_same_const with (sg := sg); auto|].
  replace (n - d) with (S (n - d - 1)) in * by lia. simpl. rewrite Hst by (simpl; auto). eauto.
Qed.

Lemma all_done_inv d k sg s : Inv d k sg s -> all_done (ms s) = (d =? n).
Proof.
  intros I. unfold all_done. destruct (Nat.eqb_spec d n) as [->|N].
  - apply forallb_forall. intros x Hx. apply In_nth with (d := dummy_step) in Hx as (i & Hi & <-).
    rewrite (inv_len I) in Hi. apply (inv_done I Hi).
  - pose proof (inv_d I). apply forallb_false_in with (x := nth d (ms s) dummy_step).
    + apply nth_In. rewrite (inv_len I). lia.
    + destruct (inv_run I (i := d)) as (A & _); [lia|]. apply (l_done A).
Qed.

Lemma Inv_running d k sg s : Inv d k sg s -> all_done (ms s) = false -> d < n.
Proof. intros I H. rewrite (all_done_inv I) in H. pose proof (inv_d I). lia. Qed.

Lemma pfasst_step_gen d k sg s :
  wf_cfg -> Inv d k sg s -> d < n -> exists s', pfasst c o s = Ok s' /\ stepped d k sg s'.
Proof.
  intros WF I Hd. pose proof WF as (Hn & Hnsw & Hpt).
  destruct (stages_inv I Hd) as (Ha & r & Hr). unfold pfasst. rewrite Ha, Hr, (running_inv I). clear Ha r Hr.
  destruct (inv_run I (i := d)) as (_ & _ & Gd); [lia|].
  pose proof (inv_sg I) as Hsg.
  destruct sg; try congruence.
  - (* SPREAD *)
    destruct Gd as (-> & _).
    eapply (stage_steps I Hn Hd); [apply spread_ok|reflexivity| | | |].
    + destruct (1 <? nlev c); discriminate.
    + destruct (1 <? nlev c); simpl; lia.
    + destruct (1 <? nlev c); simpl; lia.
    + intros g (_ & ->). simpl. destruct (Nat.ltb_spec 1 (nlev c)); simpl; auto.
  - (* PREDICT *)
    destruct Gd as (-> & _ & Hl).
    eapply (stage_steps I Hn Hd); [apply predict_ok; auto|reflexivity|discriminate|simpl; lia|simpl; lia|].
    intros g (_ & -> & _). simpl. auto.
  - (* IT_CHECK *)
    apply it_check_ok; auto.
  - (* IT_FINE *)
    destruct Gd as (Hk0 & _).
    eapply (stage_steps I Hn Hd); [apply it_fine_ok; auto|reflexivity|discriminate|simpl; lia|simpl; lia|].
    intros g (_ & Hg). simpl. replace (k =? 0) with false by lia.
    destruct Hg as [-> | (-> & Hs)]; [apply grun_sw_I1|].
    rewrite grun_sw_I0. replace (nsw c 0 =? 0) with false by lia; auto.
  - (* IT_DOWN *)
    destruct Gd as (Hk0 & _ & Hl). destruct (@it_down_ok d k IT_DOWN) as (h & Hh); [lia|].
    eapply (stage_steps I Hn Hd); [exact Hh|reflexivity|discriminate|simpl; lia|simpl; lia|].
    intros g (_ & -> & _). simpl. split; auto. rewrite grun_sw_I0. destruct (h =? 0); auto.
  - (* IT_COARSE *)
    destruct Gd as (Hk0 & _).
    eapply (stage_steps I Hn Hd); [apply it_coarse_ok; auto|reflexivity| | | |].
    + destruct (1 <? nlev c); discriminate.
    + destruct (1 <? nlev c); simpl; lia.
    + destruct (1 <? nlev c); simpl; lia.
    + intros g (_ & Hg). destruct (1 <? nlev c); simpl.
      * split; auto. destruct Hg as [-> | ->]; auto.
      * replace (k =? 0) with false by lia. destruct Hg as [-> | ->]; auto.
  - (* IT_UP *)
    destruct Gd as (Hk0 & _). destruct (@it_up_ok d k IT_UP) as (h & Hh).
    eapply (stage_steps I Hn Hd); [exact Hh|reflexivity|discriminate|simpl; lia|simpl; lia|].
    intros g (_ & ->). simpl. split; auto. left. apply grun_sw_I1.
Qed.

(* the termination measure by cases on the stage: 5 (B - k) + rank sg, with k = 0 in SPREAD and PREDICT *)
Definition mu (B : nat) (sg : stage) (k : nat) : nat :=
  match sg with
  | SPREAD => 5 * B + 3
  | PREDICT => 5 * B + 2
  | IT_CHECK => 5 * (B - k) + 1
  | IT_DOWN => 5 * (B - k) + 5
  | IT_COARSE => 5 * (B - k) + 4
  | IT_UP => 5 * (B - k) + 3
  | IT_FINE => 5 * (B - k) + 2
  | DONE => 0
  end.

Lemma mu_rank Bd sg k : mu Bd sg k = 5 * (Bd - k) + rank sg \/ ((sg = SPREAD \/ sg = PREDICT) /\ mu Bd sg k = 5 * Bd + rank sg) \/ sg = DONE.
Proof. destruct sg; simpl; auto. Qed.

(* term_bound, under a name of its own inside the section *)
Definition conv_from (B : nat) : Prop := forall i k fd, B <= k -> conv_expr i k fd = true.

Lemma pfasst_step B d k sg s :
  conv_from B -> wf_cfg -> Inv d k sg s -> d < n -> k <= B ->
  exists s', pfasst c o s = Ok s' /\
    ((exists k' sg', Inv n k' sg' s' /\ k' <= B) \/
     (exists d' k' sg', d' < n /\ Inv d' k' sg' s' /\ k' <= B /\
                        5 * (B - k') + rank sg' < 5 * (B - k) + rank sg)).
Proof.
  intros HB WF I Hd Hk.
  destruct (pfasst_step_gen WF I Hd) as (s' & E & [(sg' & I') | (d' & k' & sg' & Hd' & I' & H)]);
    exists s'; split; auto; [left; eauto|].
  right. exists d', k', sg'. split; [lia|]. split; auto. pose proof (rank_le5 sg').
  destruct H as [(-> & Hr) | (-> & -> & Hnc)]; [lia|].
  assert (k < B) by (destruct (Nat.ltb_spec k B); auto; exfalso; apply Hnc; intros; apply HB; auto).
  simpl; lia.
Qed.

Lemma run_block_ok B : conv_from B -> wf_cfg -> forall fuel d k sg s,
  Inv d k sg s -> d < n -> k <= B -> 5 * (B - k) + rank sg <= fuel ->
  exists s' k' sg', run_block c o fuel s = Finished s' /\ Inv n k' sg' s' /\ k' <= B.
Proof.
  intros HB WF. induction fuel; intros d k sg s I Hd Hk Hmu.
  - exfalso. pose proof (inv_sg I). destruct sg; try congruence; simpl in Hmu; lia.
  - simpl. destruct (pfasst_step HB WF I Hd Hk) as (s' & E & [(k' & sg' & I' & Hk') | (d' & k' & sg' & Hd' & I' & Hk' & Hlt)]).
    + rewrite E, (all_done_inv I'), Nat.eqb_refl. exists s', k', sg'; auto.
    + rewrite E, (all_done_inv I'). replace (d' =? n) with false by (clear - Hd'; lia).
      eapply IHfuel; eauto. clear - Hmu Hlt. lia.
Qed.

End Invariant.

(* closes sgood goals about bodies made of the primitives *)
Ltac sgood_tac :=
  repeat first
    [ apply sgood_send | apply sgood_recv | apply sgood_update_nodes | apply sgood_transfer
    | apply sgood_sweep_block | apply sgood_hook
    | apply sgood_fold; [intros|]
    | apply sgood_bind; [|intros]
    | (progress (simpl; repeat constructor)) ].

(* derives `built run F` for a program written with the combinators *)
Ltac built_tac :=
  repeat first
    [ apply bl_bind | apply bl_each; intros | apply bl_if | apply bl_ok | apply bl_err
    | apply bl_loop; [first [apply incl_refl | apply incl_skipn] | intros ?msl ?i ?st; cbv zeta; sgood_tac] ].

Lemma built_mid_sweeps c run l sg : built run (mid_sweeps c run l sg).
Proof. unfold mid_sweeps, b_sendrecv, b_sweep. built_tac. Qed.

Lemma built_stage c o run sg :
  built run (match sg with
             | SPREAD => spread c run | PREDICT => predict c run | IT_CHECK => it_check c o run
             | IT_FINE => it_fine c run | IT_DOWN => it_down c run | IT_COARSE => it_coarse c run
             | IT_UP => it_up c run | DONE => Err ControllerError end).
Proof.
  destruct sg.
  - unfold spread. built_tac.
  - unfold predict, predict_mid, b_set_stage. built_tac.
    destruct (predict_type c); unfold burnin_round; built_tac.
  - unfold it_check, check_loop1, check_loop2, check_loop3, b_sendrecv. built_tac.
    + destruct (0 <? st_iter st); repeat constructor.
    + match goal with |- sgood (if ?b then _ else _) => destruct b end; simpl; repeat constructor.
  - unfold it_fine, b_sendrecv, b_sweep, b_set_stage. built_tac.
  - unfold it_down, b_transfer, b_set_stage. built_tac. all: apply built_mid_sweeps.
  - unfold it_coarse. built_tac.
  - unfold it_up, b_transfer, b_set_stage. built_tac. all: apply built_mid_sweeps.
  - apply bl_err.
Qed.

Lemma pfasst_built c o s : exists F, pfasst c o s = F s /\ built (running (ms s)) F.
Proof.
  unfold pfasst. destruct (all_same _); [|exists (Err ControllerError); split; auto; apply bl_err].
  destruct (map _ (running (ms s))) as [|sg rest]; [exists (Err IndexError); split; auto; apply bl_err|].
  eexists; split; [|apply (built_stage c o _ sg)]. destruct sg; reflexivity.
Qed.

Lemma pfasst_frame c o s : frame_rel (running (ms s)) s (res_state (pfasst c o s)).
Proof. destruct (pfasst_built c o s) as (F & -> & B). apply (built_framed B). Qed.

Lemma pfasst_good c o : rgood (pfasst c o).
Proof. intros s G. destruct (pfasst_built c o s) as (F & -> & B). apply (built_rgood B); auto. Qed.

Definition term_bound (c : cfg) (o : oracle) (B : nat) : Prop :=
  forall i k fd, B <= k -> conv_expr c o i k fd = true.

Lemma nth_init nl n i : i < n -> nth i (map (init_step nl n) (seq 0 n)) dummy_step = init_step nl n i.
Proof.
  intros Hi. rewrite nth_indep with (d' := init_step nl n 0) by (rewrite map_length, seq_length; auto).
  rewrite map_nth, seq_nth; auto.
Qed.

Lemma init_Inv c n : 0 < n -> Inv c n 0 0 SPREAD (init_block (nlev c) n).
Proof.
  intros Hn. constructor; simpl; try lia; try discriminate.
  - rewrite map_length, seq_length; auto.
  - intros i Hi. rewrite nth_init by lia. split; [|split; simpl; auto].
    constructor; simpl; auto; try apply repeat_length. symmetry; apply andb_false_r.
Qed.

(* states in which run() can call pfasst *)
Inductive reach (c : cfg) (o : oracle) (n : nat) : bstate -> Prop :=
| reach_init : reach c o n (init_block (nlev c) n)
| reach_step s s' : reach c o n s -> all_done (ms s) = false -> pfasst c o s = Ok s' -> reach c o n s'.

Theorem reach_Inv c o n s : wf_cfg c -> 0 < n -> reach c o n s -> exists d k sg, Inv c n d k sg s.
Proof.
  intros WF Hn R. induction R.
  - exists 0, 0, SPREAD. apply init_Inv; auto.
  - destruct IHR as (d & k & sg & I).
    destruct (pfasst_step_gen o WF I (Inv_running I H)) as (s1 & E & [(sg' & I') | (d' & k' & sg' & _ & I' & _)]);
      rewrite E in H0; injection H0 as <-; eauto.
Qed.

(* no exception of any kind; in particular neither the stage ControllerError nor a CommunicationError *)
Theorem pfasst_never_raises c o n s :
  wf_cfg c -> 0 < n -> reach c o n s -> all_done (ms s) = false -> exists s', pfasst c o s = Ok s'.
Proof.
  intros WF Hn R H. destruct (reach_Inv WF Hn R) as (d & k & sg & I).
  destruct (pfasst_step_gen o WF I (Inv_running I H)) as (s1 & E & _). eauto.
Qed.

Theorem lockstep c o n s : wf_cfg c -> 0 < n -> reach c o n s ->
  forall i j, i < n -> j < n ->
    st_stage (nth i (ms s) dummy_step) <> DONE -> st_stage (nth j (ms s) dummy_step) <> DONE ->
    st_stage (nth i (ms s) dummy_step) = st_stage (nth j (ms s) dummy_step).
Proof.
  intros WF Hn R i j Hi Hj Ni Nj. destruct (reach_Inv WF Hn R) as (d & k & sg & I).
  destruct (Inv_view I Hi) as [(_ & X & _)|(_ & X & _)], (Inv_view I Hj) as [(_ & Y & _)|(_ & Y & _)]; congruence.
Qed.

Theorem done_prefix c o n s : wf_cfg c -> 0 < n -> reach c o n s ->
  forall i j, i <= j -> j < n -> st_done (nth j (ms s) dummy_step) = true -> st_done (nth i (ms s) dummy_step) = true.
Proof.
  intros WF Hn R i j Hij Hj Dj. destruct (reach_Inv WF Hn R) as (d & k & sg & I).
  destruct (Inv_view I Hj) as [(Hjd & _)|(_ & _ & X)]; [|simpl in X; congruence].
  destruct (Inv_view I (i := i)) as [(_ & _ & X)|(Hid & _)]; auto; lia.
Qed.

(* a DONE step is never changed again, and no further event carries its slot: in any state, reachable or not *)
Theorem done_frame c o s i :
  st_stage (nth i (ms s) dummy_step) = DONE ->
  let s' := res_state (pfasst c o s) in
  nth_error (ms s') i = nth_error (ms s) i /\
  exists ext, tr s' = tr s ++ ext /\ Forall (fun e => fst e <> i) ext.
Proof.
  intros Hs. destruct (pfasst_frame c o s) as (_ & N & ext & T & F). simpl.
  assert (Nin : ~ In i (running (ms s))).
  { unfold running. intros Hin. apply filter_In in Hin as (_ & Hin). rewrite Hs in Hin. discriminate. }
  split; [apply N; auto|]. exists ext; split; auto.
  eapply Forall_impl; [|exact F]. simpl. intros e He Hei. rewrite Hei in He. auto.
Qed.

Theorem tags_match c o n s : reach c o n s ->
  forall slot l t f, In (slot, LRecv l t f) (tr s) -> f = Some t.
Proof.
  intros R. assert (G : tr_good s).
  { induction R; [constructor|]. pose proof (pfasst_good c o IHR) as H1. rewrite H0 in H1. auto. }
  intros slot l t f Hin. unfold tr_good in G. rewrite Forall_forall in G. apply (G _ Hin).
Qed.

Lemma run_block_reach c o n : wf_cfg c -> 0 < n -> forall fuel s, reach c o n s -> all_done (ms s) = false ->
  match run_block c o fuel s with
  | Finished s' => reach c o n s' /\ all_done (ms s') = true
  | OutOfFuel s' => reach c o n s'
  | Raised _ _ => False
  end.
Proof.
  intros WF Hn. induction fuel; intros s R H; simpl; auto.
  destruct (pfasst_never_raises WF Hn R H) as (s' & E). rewrite E.
  assert (R' : reach c o n s') by (eapply reach_step; eauto).
  destruct (all_done (ms s')) eqn:D; auto. apply IHfuel; auto.
Qed.

Lemma run_model_reach c o n fuel : wf_cfg c -> 0 < n ->
  match run_model c o n fuel with
  | Finished s' => reach c o n s' /\ all_done (ms s') = true
  | OutOfFuel s' => reach c o n s'
  | Raised _ _ => False
  end.
Proof. intros WF Hn. apply run_block_reach; auto; [constructor|destruct n; [lia|reflexivity]]. Qed.

Lemma finished_Inv c o n fuel s : wf_cfg c -> 0 < n -> run_model c o n fuel = Finished s ->
  reach c o n s /\ exists k sg, Inv c n n k sg s.
Proof.
  intros WF Hn E. pose proof (@run_model_reach c o n fuel WF Hn) as H. rewrite E in H. destruct H as (R & D).
  split; auto. destruct (reach_Inv WF Hn R) as (d & k & sg & I).
  rewrite (all_done_inv I) in D. apply Nat.eqb_eq in D. subst d. eauto.
Qed.

Section Terminates.
Variables (c : cfg) (o : oracle) (n B : nat).
Hypothesis WF : wf_cfg c.
Hypothesis Hn : 0 < n.

Theorem callback_grammar : forall fuel s, run_model c o n fuel = Finished s ->
  forall i, i < n -> grammar (hproj i (tr s)).
Proof.
  intros fuel s E i Hi. destruct (@finished_Inv c o n fuel s WF Hn E) as (_ & k & sg & I).
  apply grun_sound. apply (inv_done I Hi).
Qed.

Theorem all_to_done_equal_niter : all_to_done c = true ->
  forall fuel s, run_model c o n fuel = Finished s ->
  forall i j, i < n -> j < n -> st_iter (nth i (ms s) dummy_step) = st_iter (nth j (ms s) dummy_step).
Proof.
  intros Ha fuel s E i j Hi Hj. destruct (@finished_Inv c o n fuel s WF Hn E) as (_ & k & sg & I).
  destruct (inv_done I Hi) as (_ & _ & _ & _ & Ei). destruct (inv_done I Hj) as (_ & _ & _ & _ & Ej).
  rewrite Ei, Ej; auto.
Qed.
Hypothesis HB : term_bound c o B.

Theorem block_terminates : forall fuel, fuel_for B <= fuel ->
  exists s, run_model c o n fuel = Finished s /\ reach c o n s /\
    forall i, i < n -> let st := nth i (ms s) dummy_step in
      st_stage st = DONE /\ st_done st = true /\ st_iter st <= B.
Proof.
  intros fuel Hf. unfold run_model.
  destruct (@run_block_ok c o n B HB WF fuel 0 0 SPREAD (init_block (nlev c) n)) as (s & k & sg & E & I & Hk);
    [apply init_Inv; auto|lia|lia|unfold fuel_for in Hf; simpl; lia|].
  exists s; split; auto. split; [apply (@finished_Inv c o n fuel s WF Hn E)|].
  intros i Hi. destruct (inv_done I Hi) as (A1 & A2 & _ & A4 & _). simpl. repeat split; auto. lia.
Qed.
End Terminates.
