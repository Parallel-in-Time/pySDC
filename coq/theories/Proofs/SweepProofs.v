(* Proofs about Model/Sweep.v.  K is an arbitrary commutative ring (ring_theory hypothesis); the
   right-hand side and the solvers are arbitrary functions subject only to the solver contract.
   The file opens with what needs no law of K: `upd`, and the lemma about forward loops over the nodes that every
   sweeper file uses.
   Then one section holds the ring and the data of a level; it starts with the facts about sumf the sweeper
   files share.  Its subsection has the node solve, the number of parts and their preconditioners as variables:
   the matrix form of a sweep and the two fixed-point theorems are proved there once.  After it they are
   instantiated for the sweepers of pySDC; multi_implicit (two solves per node) has an equation of its own. *)
From Coq Require Import List Arith Bool Lia Ring.
From PySDC Require Import Model.Sweep.
Import ListNotations.

Lemma upd_same {A} (g : nat -> A) i v : upd g i v i = v.
Proof. unfold upd. rewrite Nat.eqb_refl. reflexivity. Qed.

Lemma upd_other {A} (g : nat -> A) i v j : j <> i -> upd g i v j = g j.
Proof. unfold upd. intros H. destruct (Nat.eqb_spec j i); [contradiction|reflexivity]. Qed.

(* A loop `for m in k .. k+n-1` over a state whose node j is seen through `view s j`.  If step m rewrites node m only,
   with a value `body s o m` computed from the state s below m and the node's own old value o, then after the loop the
   nodes outside the range are as before and node m holds body of the FINAL state (and its old value).  No ring laws:
   this holds for floats as well.  `loop` is the model's loop (a Fixpoint over the node list, or fold_left step). *)
Section NodeLoop.
  Context {St T : Type} (view : St -> nat -> T) (step : St -> nat -> St) (loop : list nat -> St -> St)
          (body : St -> T -> nat -> T) (lo : nat).
  Hypothesis loop_nil : forall s, loop [] s = s.
  Hypothesis loop_cons : forall m ms s, loop (m :: ms) s = loop ms (step s m).
  Hypothesis step_other : forall s m j, lo <= m -> j <> m -> view (step s m) j = view s j.
  Hypothesis step_same : forall s m, lo <= m -> view (step s m) m = body s (view s m) m.
  Hypothesis body_below : forall s s' o m, lo <= m -> (forall j, j < m -> view s j = view s' j) -> body s o m = body s' o m.

  Lemma view_loop_spec n : forall k s, lo <= k ->
    let r := loop (seq k n) s in
    (forall j, j < k \/ k + n <= j -> view r j = view s j) /\
    (forall m, k <= m < k + n -> view r m = body r (view s m) m).
  Proof.
    induction n as [|n IH]; intros k s Hk; cbn [seq]; [rewrite loop_nil | rewrite loop_cons].
    - split; [reflexivity | lia].
    - destruct (IH (S k) (step s k) ltac:(lia)) as [IHf IHn]. split.
      + intros j Hj. rewrite IHf by lia. apply step_other; lia.
      + intros m Hm. destruct (Nat.eq_dec m k) as [->|Hne].
        * rewrite IHf, step_same by lia. apply body_below; [exact Hk|].
          intros j Hj. rewrite IHf by lia. symmetry. apply step_other; lia.
        * rewrite IHn, step_other by lia. reflexivity.
  Qed.
End NodeLoop.

(* the same when the state is one array and step m is `upd f m (body f (f m) m)` *)
Lemma array_loop_spec {T} (loop : list nat -> (nat -> T) -> nat -> T) (body : (nat -> T) -> T -> nat -> T) lo :
  (forall f, loop [] f = f) -> (forall m ms f, loop (m :: ms) f = loop ms (upd f m (body f (f m) m))) ->
  (forall a b o m, lo <= m -> (forall j, j < m -> a j = b j) -> body a o m = body b o m) ->
  forall n k f, lo <= k ->
    let r := loop (seq k n) f in
    (forall j, j < k \/ k + n <= j -> r j = f j) /\ (forall m, k <= m < k + n -> r m = body r (f m) m).
Proof.
  intros Hn Hc Hb.
  apply (view_loop_spec (fun f j => f j) (fun f m => upd f m (body f (f m) m)) loop body lo Hn Hc);
    [intros; apply upd_other; assumption | intros; apply upd_same | exact Hb].
Qed.

(* the same when the state is a pair of arrays (u, f): node k gets the value W k f' (u' k), computed from the right-hand
   sides f' stored so far and its own old value, and the right-hand side F k of that value *)
Lemma pair_loop_spec {O B} (W : nat -> (nat -> B) -> O -> O) (F : nat -> O -> B)
      (loop : list nat -> (nat -> O) * (nat -> B) -> (nat -> O) * (nat -> B)) :
  (forall st, loop [] st = st) ->
  (forall k ms u' f', loop (k :: ms) (u', f') = loop ms (upd u' k (W k f' (u' k)), upd f' k (F k (W k f' (u' k))))) ->
  (forall k fn fn' w, (forall j, j < k -> fn j = fn' j) -> W k fn w = W k fn' w) ->
  forall n k u' f',
  let r := loop (seq k n) (u', f') in
  (forall j, j < k \/ k + n <= j -> fst r j = u' j /\ snd r j = f' j) /\
  (forall m, k <= m < k + n -> snd r m = F m (fst r m) /\ fst r m = W m (snd r) (u' m)).
Proof.
  intros Hnil Hcons Hloc n k u' f'.
  destruct (view_loop_spec (fun st j => (fst st j, snd st j))
              (fun st m => (upd (fst st) m (W m (snd st) (fst st m)), upd (snd st) m (F m (W m (snd st) (fst st m)))))
              loop (fun st o m => (W m (snd st) (fst o), F m (W m (snd st) (fst o)))) 0 Hnil)
    with (n := n) (k := k) (s := (u', f')) as [Sf Sn].
  - intros m ms [u1 f1]. apply Hcons.
  - intros [u1 f1] m j _ H. cbn [fst snd]. rewrite !upd_other by exact H. reflexivity.
  - intros [u1 f1] m _. cbn [fst snd]. rewrite !upd_same. reflexivity.
  - intros s s' o m _ H. rewrite (Hloc m (snd s) (snd s') (fst o)); [reflexivity|].
    intros j Hj. exact (f_equal snd (H j Hj)).
  - apply Nat.le_0_l.
  - split.
    + intros j Hj. injection (Sf j Hj) as E1 E2. split; assumption.
    + intros m Hm. injection (Sn m Hm) as E1 E2. split; [rewrite E2, E1; reflexivity | exact E1].
Qed.

Section SweepProofs.
  Context {K : Type} (kO kI : K) (kadd kmul ksub : K -> K -> K) (kopp : K -> K) (keqb : K -> K -> bool).
  Hypothesis Rth : ring_theory kO kI kadd kmul ksub kopp (@eq K).
  Add Ring Kring : Rth.
  Hypothesis keqb_true : forall a b, keqb a b = true -> a = b.
  Context {X : Type}.
  Notation V := (X -> K).

  Local Infix "+!" := kadd (at level 50, left associativity).
  Local Infix "*!" := kmul (at level 40, left associativity).
  Local Infix "-!" := ksub (at level 50, left associativity).

  (* an equation read off another one that differs from it by a ring identity *)
  Lemma rearrange a b a' b' : a' = b' -> a +! b' = b +! a' -> a = b.
  Proof. intros E H. transitivity ((a +! b') -! b'); [ring|]. rewrite H, E. ring. Qed.

  (* sum_{j = lo .. lo+n-1} g j *)
  Fixpoint sumf (g : nat -> K) (lo n : nat) : K :=
    match n with O => kO | S n' => g lo +! sumf g (S lo) n' end.

  Lemma sumf_ext g h lo n : (forall j, lo <= j < lo + n -> g j = h j) -> sumf g lo n = sumf h lo n.
  Proof.
    revert lo. induction n as [|n IH]; intros lo H; cbn [sumf]; [reflexivity|].
    rewrite H by lia. rewrite (IH (S lo)); [reflexivity|]. intros j Hj. apply H. lia.
  Qed.

  Lemma sumf_add g h lo n : sumf (fun j => g j +! h j) lo n = sumf g lo n +! sumf h lo n.
  Proof. revert lo. induction n as [|n IH]; intros lo; cbn [sumf]; [ring|]. rewrite IH. ring. Qed.

  Lemma sumf_sub g h lo n : sumf (fun j => g j -! h j) lo n = sumf g lo n -! sumf h lo n.
  Proof. revert lo. induction n as [|n IH]; intros lo; cbn [sumf]; [ring|]. rewrite IH. ring. Qed.

  Lemma sumf_scal c g lo n : sumf (fun j => c *! g j) lo n = c *! sumf g lo n.
  Proof. revert lo. induction n as [|n IH]; intros lo; cbn [sumf]; [ring|]. rewrite IH. ring. Qed.

  Lemma sumf_zero lo n : sumf (fun _ => kO) lo n = kO.
  Proof. revert lo. induction n as [|n IH]; intros lo; cbn [sumf]; [reflexivity|]. rewrite IH. ring. Qed.

  Lemma sumf_split g lo n1 n2 : sumf g lo (n1 + n2) = sumf g lo n1 +! sumf g (lo + n1) n2.
  Proof.
    revert lo. induction n1 as [|n1 IH]; intros lo; cbn [sumf Nat.add].
    - rewrite Nat.add_0_r. ring.
    - rewrite IH. replace (S lo + n1) with (lo + S n1) by lia. ring.
  Qed.

  Lemma sumf_snoc g lo n : sumf g lo (S n) = sumf g lo n +! g (lo + n).
  Proof. replace (S n) with (n + 1) by lia. rewrite sumf_split. cbn [sumf]. ring. Qed.

  (* sums that start at node 1: the last term *)
  Lemma sumf_last (g : nat -> K) m : 1 <= m -> sumf g 1 m = sumf g 1 (m - 1) +! g m.
  Proof.
    intros Hm. replace m with (S (m - 1)) at 1 by lia. rewrite sumf_snoc. replace (1 + (m - 1)) with m by lia. reflexivity.
  Qed.

  Lemma sumf_zeros (g : nat -> K) lo n : (forall j, lo <= j < lo + n -> g j = kO) -> sumf g lo n = kO.
  Proof. intros H. rewrite (sumf_ext g (fun _ => kO) lo n H). apply sumf_zero. Qed.

  Lemma sumf_cut g lo n k : k <= n -> (forall j, lo + k <= j < lo + n -> g j = kO) -> sumf g lo n = sumf g lo k.
  Proof.
    intros Hk H. replace n with (k + (n - k)) by lia.
    rewrite sumf_split, (sumf_zeros g (lo + k)) by (intros j Hj; apply H; lia). ring.
  Qed.

  (* the same two when it is the coefficients that vanish: a sum stops where they do *)
  Lemma sumf_trunc (c g : nat -> K) lo n N :
    n <= N -> (forall j, lo + n <= j < lo + N -> c j = kO) ->
    sumf (fun j => c j *! g j) lo N = sumf (fun j => c j *! g j) lo n.
  Proof. intros Hn Hc. apply sumf_cut; [exact Hn|]. intros j Hj. rewrite Hc by exact Hj. ring. Qed.

  Lemma sumf_vanish (c g : nat -> K) lo N :
    (forall j, lo <= j < lo + N -> c j = kO) -> sumf (fun j => c j *! g j) lo N = kO.
  Proof. intros Hc. apply sumf_zeros. intros j Hj. rewrite Hc by exact Hj. ring. Qed.

  (* a common factor of the summands, however they are bracketed *)
  Lemma sumf_lin c (q a g : nat -> K) lo n :
    (forall j, g j = c *! (q j *! a j)) -> sumf g lo n = c *! sumf (fun j => q j *! a j) lo n.
  Proof. intros H. rewrite <- sumf_scal. apply sumf_ext. intros j _. apply H. Qed.

  Lemma sumf_scal_l c q a lo n : sumf (fun j => (c *! q j) *! a j) lo n = c *! sumf (fun j => q j *! a j) lo n.
  Proof. apply sumf_lin. intros; ring. Qed.

  Lemma sumf_scal_r g c lo n : sumf (fun j => g j *! c) lo n = sumf g lo n *! c.
  Proof. transitivity (c *! sumf g lo n); [|ring]. rewrite <- sumf_scal. apply sumf_ext. intros; ring. Qed.

  (* a row d that is the difference of two rows a, b: a = d + b, coefficient by coefficient *)
  Lemma sumf_rows (a d b g : nat -> K) lo n :
    (forall j, d j = a j -! b j) ->
    sumf (fun j => a j *! g j) lo n = sumf (fun j => d j *! g j) lo n +! sumf (fun j => b j *! g j) lo n.
  Proof. intros H. rewrite <- sumf_add. apply sumf_ext. intros j _. rewrite H. ring. Qed.

  Lemma sumf_sub_coeff q p a lo n : sumf (fun j => (q j -! p j) *! a j) lo n
     = sumf (fun j => q j *! a j) lo n -! sumf (fun j => p j *! a j) lo n.
  Proof. rewrite (sumf_rows q (fun j => q j -! p j) p a lo n) by reflexivity. ring. Qed.

  Lemma sumf_swap (a : nat -> nat -> K) lo1 n1 lo2 n2 :
    sumf (fun i => sumf (fun j => a i j) lo2 n2) lo1 n1 = sumf (fun j => sumf (fun i => a i j) lo1 n1) lo2 n2.
  Proof.
    induction n1 as [|n1 IH].
    - cbn. symmetry. apply sumf_zero.
    - rewrite sumf_snoc, IH, <- sumf_add. apply sumf_ext. intros j _. symmetry. apply sumf_snoc.
  Qed.

  Lemma accum_spec (acc : V) lo n term x :
    accum kadd acc lo n term x = acc x +! sumf (fun j => term j x) lo n.
  Proof.
    unfold accum. revert acc lo. induction n as [|n IH]; intros acc lo; cbn [seq fold_left sumf].
    - ring.
    - rewrite IH. unfold vadd. ring.
  Qed.

  Lemma accum_sub_spec (acc : V) lo n term x :
    accum_sub ksub acc lo n term x = acc x -! sumf (fun j => term j x) lo n.
  Proof.
    unfold accum_sub. revert acc lo. induction n as [|n IH]; intros acc lo; cbn [seq fold_left sumf].
    - ring.
    - rewrite IH. unfold vsub. ring.
  Qed.

  (* the two quadrature loops of the second-order sweepers (integrate() and compute_end_point() of verlet and boris_2nd_order):
     positions and velocities *)
  Lemma pos_quad_spec (acc : V) (a b : nat -> K) (F : nat -> V) (v0 : V) c lo n x :
    accum kadd acc lo n (fun j => vadd kadd (vscale kmul (c *! (c *! a j)) (F j)) (vscale kmul (c *! b j) v0)) x
    = acc x +! c *! sumf b lo n *! v0 x +! c *! c *! sumf (fun j => a j *! F j x) lo n.
  Proof. rewrite accum_spec. unfold vadd, vscale. rewrite sumf_add, !sumf_scal_l, (sumf_scal_r b). ring. Qed.

  Lemma vel_quad_spec (acc : V) (b : nat -> K) (F : nat -> V) c lo n x :
    accum kadd acc lo n (fun j => vscale kmul (c *! b j) (F j)) x = acc x +! c *! sumf (fun j => b j *! F j x) lo n.
  Proof. rewrite accum_spec. unfold vscale. rewrite sumf_scal_l. reflexivity. Qed.

  (* a loop that subtracts one term and adds another per index (the right-hand side of the multistep sweeper) *)
  Lemma fold_sub_add_spec (acc : V) lo n (s t : nat -> V) x :
    fold_left (fun a i => vadd kadd (vsub ksub a (s i)) (t i)) (seq lo n) acc x
    = acc x +! sumf (fun i => t i x -! s i x) lo n.
  Proof.
    revert acc lo. induction n as [|n IH]; intros acc lo; cbn [seq fold_left sumf]; [ring|].
    rewrite IH. unfold vadd, vsub. ring.
  Qed.

  Lemma accum_ext (acc : V) lo n t1 t2 :
    (forall j, lo <= j < lo + n -> t1 j = t2 j) -> accum kadd acc lo n t1 = accum kadd acc lo n t2.
  Proof.
    unfold accum. revert acc lo. induction n as [|n IH]; intros acc lo H; cbn [seq fold_left]; [reflexivity|].
    rewrite H by lia. apply IH. intros j Hj. apply H. lia.
  Qed.

  (* the optional FAS correction as a summand *)
  Definition tauval (tau : nat -> option V) (m : nat) (x : X) : K :=
    match tau m with Some tm => tm x | None => kO end.

  Lemma tauval_spec (s : V) (tau : nat -> option V) m x :
    match tau m with Some tm => vadd kadd s tm | None => s end x = s x +! tauval tau m x.
  Proof. unfold tauval. destruct (tau m); [reflexivity | ring]. Qed.

  Lemma sumf_ftot (q : nat -> K) (g : nat -> nat -> V) n x lo k :
    sumf (fun j => q j *! ftot kO kadd n (g j) x) lo k = sumf (fun p => sumf (fun j => q j *! g j p x) lo k) 0 n.
  Proof.
    induction n as [|n IH]; cbn [ftot].
    - rewrite (sumf_ext _ (fun _ => kO)) by (intros; unfold vzero; ring). apply sumf_zero.
    - rewrite sumf_snoc, <- IH, <- sumf_add. apply sumf_ext. intros; unfold vadd; cbn [Nat.add]; ring.
  Qed.

  Lemma sumf_ftot1 (q : nat -> K) (f : nat -> nat -> V) x lo n :
    sumf (fun j => q j *! ftot kO kadd 1 (f j) x) lo n = sumf (fun j => q j *! f j 0 x) lo n.
  Proof. rewrite sumf_ftot. cbn [sumf]. ring. Qed.

  Lemma sumf_ftot2 (q : nat -> K) (f : nat -> nat -> V) x lo n :
    sumf (fun j => q j *! ftot kO kadd 2 (f j) x) lo n = sumf (fun j => q j *! (f j 0 x +! f j 1 x)) lo n.
  Proof. apply sumf_ext. intros; cbn [ftot]; unfold vadd, vzero; ring. Qed.

  Variable M : nat.
  Variable dt t0 : K.
  Variable nodes : nat -> K.
  Variable Q : nat -> nat -> K.

  (* integrate(), for every number of parts: stated before np becomes a variable of the section *)
  Theorem integrate_is_dtQF np (f : nat -> nat -> V) m x :
    integrate kO kadd kmul M dt Q np f m x = dt *! sumf (fun j => Q m j *! ftot kO kadd np (f j) x) 1 M.
  Proof. unfold integrate. rewrite accum_spec. unfold vzero, vscale. rewrite sumf_scal_l. ring. Qed.

  Notation tn := (tnode kadd kmul dt t0 nodes).

  Definition lower_triangular (A : nat -> nat -> K) : Prop := forall m j, m < j -> A m j = kO.
  Definition strictly_lower_triangular (A : nat -> nat -> K) : Prop := forall m j, m <= j -> A m j = kO.

  (* a row of a lower-triangular table against values that agree up to the diagonal *)
  Lemma lower_row (A : nat -> nat -> K) (g h : nat -> K) m :
    lower_triangular A -> 1 <= m <= M -> (forall j, 1 <= j <= m -> g j = h j) ->
    sumf (fun j => A m j *! g j) 1 m = sumf (fun j => A m j *! h j) 1 M.
  Proof.
    intros Ht Hm E. rewrite (sumf_trunc (A m) h 1 m M) by (try lia; intros j Hj; apply Ht; lia).
    apply sumf_ext. intros j Hj. rewrite E by lia. reflexivity.
  Qed.

  Section Generic.
  Variable np : nat.
  Variable feval : K -> V -> nat -> V.
  Variable QD : nat -> nat -> nat -> K.
  Variable node_solve : V -> nat -> V -> V.

  Notation dqd_term := (dqd_term kO kadd kmul dt np QD).
  Notation qd_term := (qd_term kO kadd kmul QD).
  Notation sweep_loop := (sweep_loop kO kadd kmul dt t0 nodes np feval QD node_solve).
  Notation gather := (gather kO kadd kmul ksub M dt Q np QD).

  Lemma qd_term_ext p (f1 f2 : nat -> nat -> V) m j : f1 j = f2 j -> qd_term p f1 m j = qd_term p f2 m j.
  Proof. intros H. induction p as [|p IH]; simpl; [reflexivity|]. rewrite IH, H. reflexivity. Qed.

  Lemma dqd_term_ext (f1 f2 : nat -> nat -> V) m j : f1 j = f2 j -> dqd_term f1 m j = dqd_term f2 m j.
  Proof. intros H. unfold Sweep.dqd_term. rewrite (qd_term_ext np f1 f2 m j H). reflexivity. Qed.

  Lemma sumf_qd_term p (f : nat -> nat -> V) m x lo k :
    sumf (fun j => qd_term p f m j x) lo k = sumf (fun p' => sumf (fun j => QD p' m j *! f j p' x) lo k) 0 p.
  Proof.
    induction p as [|p IH]; cbn [Sweep.qd_term].
    - apply sumf_zero.
    - rewrite sumf_snoc, <- IH, <- sumf_add. reflexivity.
  Qed.

  (* the node loop of update_nodes: rhs_m is built from the FINAL right-hand sides of the nodes before m *)
  Lemma sweep_loop_spec lo g : forall n k u' f',
    let r := sweep_loop lo g (seq k n) (u', f') in
    (forall j, j < k \/ k + n <= j -> fst r j = u' j /\ snd r j = f' j) /\
    (forall m, k <= m < k + n ->
       snd r m = feval (tn m) (fst r m) /\
       fst r m = node_solve (accum kadd (g m) lo (m - lo) (dqd_term (snd r) m)) m (u' m)).
  Proof.
    intros n k u' f'.
    apply (pair_loop_spec (fun m fn w => node_solve (accum kadd (g m) lo (m - lo) (dqd_term fn m)) m w)
             (fun m w => feval (tn m) w) (sweep_loop lo g)); [reflexivity..|].
    intros m fn fn' w H. f_equal. apply accum_ext. intros j Hj. apply dqd_term_ext, H. lia.
  Qed.

  (* frame of update_nodes for any node solve (no law needed): the initial value is untouched, and the stored right-hand
     sides are those of the new values *)
  Lemma update_nodes_frame (u : nat -> V) f tau :
    let r := update_nodes kO kadd kmul ksub M dt t0 nodes Q np feval QD node_solve u f tau in
    fst r 0 = u 0 /\ forall m, 1 <= m <= M -> snd r m = feval (tn m) (fst r m).
  Proof.
    destruct (sweep_loop_spec 1 (gather 1 (u 0) f tau) M 1 u f) as [Sf Sn].
    split; [apply Sf; lia | intros m Hm; apply Sn; lia].
  Qed.

  (* The right-hand side handed to the node solve at node m when the loop starts from the gathered values,
     part by part: fn holds the right-hand sides of the nodes already swept.  The gather and the loop run over
     the columns lo.. of the QD; column 0 (lo = 0, the mass sweeper) cancels because node 0 is never written. *)
  Lemma sweep_rhs_form lo (u0 : V) (f fn : nat -> nat -> V) tau m x :
    lo <= 1 <= m -> fn 0 = f 0 ->
    accum kadd (gather lo u0 f tau m) lo (m - lo) (dqd_term fn m) x
    = u0 x +! dt *! sumf (fun p => sumf (fun j => Q m j *! f j p x) 1 M) 0 np
           -! dt *! sumf (fun p => sumf (fun j => QD p m j *! f j p x) 1 M) 0 np +! tauval tau m x
           +! dt *! sumf (fun p => sumf (fun j => QD p m j *! fn j p x) 1 (m - 1)) 0 np.
  Proof.
    intros [Hlo Hm] H0.
    assert (E : sumf (fun j => qd_term np fn m j x) lo (m - lo)
              = sumf (fun j => qd_term np f m j x) lo (S M - lo)
                +! (sumf (fun j => qd_term np fn m j x) 1 (m - 1) -! sumf (fun j => qd_term np f m j x) 1 M)).
    { destruct lo as [|[|]]; [|replace (S M - 1) with M by lia; ring | lia].
      replace (m - 0) with (S (m - 1)) by lia. cbn [sumf Nat.sub]. rewrite (qd_term_ext np fn f m 0 H0). ring. }
    rewrite !sumf_qd_term in E.
    rewrite accum_spec. cbv beta zeta delta [Sweep.gather]. rewrite tauval_spec. unfold vadd.
    rewrite accum_sub_spec, integrate_is_dtQF, sumf_ftot. unfold Sweep.dqd_term, vscale. rewrite !sumf_scal, !sumf_qd_term, E.
    ring.
  Qed.

  (* The matrix form of every sweeper that is gather + node loop, for any number of parts.  If the node solve satisfies
        L (node_solve rhs m uold) - alpha m * f_0(node_solve rhs m uold, t_m) = rhs   (pointwise)
     (L the identity, or the mass matrix) then every node m = 1..M satisfies the equation below, its stored
     right-hand side is feval at its own time and NEW value, and nothing else changed. *)
  Lemma update_nodes_generic lo (L : V -> V) (alpha : nat -> K) (u0 : V) (u : nat -> V) (f : nat -> nat -> V) tau :
    lo <= 1 ->
    (forall rhs m uold x, L (node_solve rhs m uold) x -! alpha m *! feval (tn m) (node_solve rhs m uold) 0 x = rhs x) ->
    let r := sweep_loop lo (gather lo u0 f tau) (seq 1 M) (u, f) in
    (forall j, j = 0 \/ M < j -> fst r j = u j /\ snd r j = f j) /\
    forall m, 1 <= m <= M ->
      snd r m = feval (tn m) (fst r m) /\
      forall x,
        L (fst r m) x -! alpha m *! snd r m 0 x
          -! dt *! sumf (fun p => sumf (fun j => QD p m j *! snd r j p x) 1 (m - 1)) 0 np
        = u0 x +! dt *! sumf (fun p => sumf (fun j => Q m j *! f j p x) 1 M) 0 np
               -! dt *! sumf (fun p => sumf (fun j => QD p m j *! f j p x) 1 M) 0 np +! tauval tau m x.
  Proof.
    intros Hlo Hc r. destruct (sweep_loop_spec lo (gather lo u0 f tau) M 1 u f) as [Sf Sn]. fold r in Sf, Sn.
    split; [intros j Hj; apply Sf; lia|].
    intros m Hm. destruct (Sn m ltac:(lia)) as [E1 E2]. split; [exact E1|]. intros x.
    rewrite E1, E2, Hc, (sweep_rhs_form lo u0 f (snd r) tau m x (conj Hlo (proj1 Hm)) (proj2 (Sf 0 (or_introl (le_n 1))))).
    ring.
  Qed.

  (* Fixed points of a sweep (C01).  Extensionality of the problem's functions: true of any actual function of
     the VALUES *)
  Definition feval_ext : Prop :=
    forall t (u v : V), (forall x, u x = v x) -> forall p x, feval t u p x = feval t v p x.
  Definition consistent (u : nat -> V) (f : nat -> nat -> V) : Prop :=
    forall m, 1 <= m <= M -> forall p x, f m p x = feval (tn m) (u m) p x.

  (* part 0 is treated implicitly, with a lower-triangular QD 0 whose diagonal gives the factor alpha of the node
     solve; the other parts explicitly, with strictly lower-triangular QD p *)
  Definition triangular_split (alpha : nat -> K) : Prop :=
    1 <= np /\ lower_triangular (QD 0) /\ (forall p, 1 <= p < np -> strictly_lower_triangular (QD p)) /\
    forall m, alpha m = dt *! QD 0 m m.

  (* then the diagonal term and the sums over the nodes before m make up the full rows *)
  Lemma triangular_rows alpha (h : nat -> nat -> K) m :
    triangular_split alpha -> 1 <= m <= M ->
    alpha m *! h m 0 +! dt *! sumf (fun p => sumf (fun j => QD p m j *! h j p) 1 (m - 1)) 0 np
    = dt *! sumf (fun p => sumf (fun j => QD p m j *! h j p) 1 M) 0 np.
  Proof.
    intros (Hnp & Ht & Hs & Ha) Hm. replace np with (S (np - 1)) by lia. cbn [sumf].
    rewrite (sumf_ext (fun p => sumf (fun j => QD p m j *! h j p) 1 M) (fun p => sumf (fun j => QD p m j *! h j p) 1 (m - 1)) 1).
    2:{ intros p Hp. apply sumf_trunc; [lia|]. intros j Hj. apply (Hs p); lia. }
    rewrite (sumf_trunc (QD 0 m) (fun j => h j 0) 1 m M), (sumf_last _ m), Ha by (try lia; intros j Hj; apply Ht; lia).
    ring.
  Qed.

  (* ANY fixed point of a sweep, for ANY such preconditioners, solves the collocation problem with the FULL
     right-hand side: preconditioners and splitting can change the iteration count but never the answer. *)
  Lemma fixed_point_is_collocation_generic alpha u f tau :
    triangular_split alpha ->
    (forall rhs m uold x, node_solve rhs m uold x -! alpha m *! feval (tn m) (node_solve rhs m uold) 0 x = rhs x) ->
    feval_ext -> consistent u f ->
    let r := update_nodes kO kadd kmul ksub M dt t0 nodes Q np feval QD node_solve u f tau in
    (forall m, 1 <= m <= M -> forall x, fst r m x = u m x) ->
    forall m, 1 <= m <= M -> forall x,
      u m x = u 0 x +! dt *! sumf (fun j => Q m j *! ftot kO kadd np (f j) x) 1 M +! tauval tau m x.
  Proof.
    intros Hsp Hc Hext Hcons r. unfold update_nodes in r. intros Hfix m Hm x.
    destruct (update_nodes_generic 1 (fun w => w) alpha (u 0) u f tau (le_n 1) Hc) as [_ Gn]. fold r in Gn.
    assert (Hf : forall j p, 1 <= j <= M -> snd r j p x = f j p x).
    { intros j p Hj. destruct (Gn j Hj) as [E _]. rewrite E, (Hcons j Hj). apply Hext, Hfix, Hj. }
    destruct (Gn m Hm) as [_ H]. specialize (H x). cbv beta in H. rewrite Hfix, Hf in H by exact Hm.
    rewrite (sumf_ext _ (fun p => sumf (fun j => QD p m j *! f j p x) 1 (m - 1))) in H
      by (intros p _; apply sumf_ext; intros j Hj; rewrite Hf by lia; reflexivity).
    rewrite <- (triangular_rows alpha (fun j p => f j p x) m Hsp Hm) in H.
    rewrite sumf_ftot. apply rearrange with (1 := H). ring.
  Qed.

  (* Conversely the collocation solution is a fixed point of the sweep, when the node equation has no other solution
     than the one the node solve returns. *)
  Lemma collocation_is_fixed_point_generic alpha u f tau :
    triangular_split alpha ->
    (forall (w rhs : V) m uold, (forall x, w x -! alpha m *! feval (tn m) w 0 x = rhs x) ->
                               forall x, node_solve rhs m uold x = w x) ->
    feval_ext -> consistent u f ->
    (forall m, 1 <= m <= M -> forall x,
       u m x = u 0 x +! dt *! sumf (fun j => Q m j *! ftot kO kadd np (f j) x) 1 M +! tauval tau m x) ->
    let r := update_nodes kO kadd kmul ksub M dt t0 nodes Q np feval QD node_solve u f tau in
    forall m, 1 <= m <= M -> forall x, fst r m x = u m x.
  Proof.
    intros Hsp Hu Hext Hcons Hcoll r. unfold update_nodes in r.
    destruct (sweep_loop_spec 1 (gather 1 (u 0) f tau) M 1 u f) as [Sf Sn]. fold r in Sf, Sn.
    induction m as [m IH] using lt_wf_ind. intros Hm.
    destruct (Sn m ltac:(lia)) as [_ E]. rewrite E. apply Hu. intros y.
    rewrite (sweep_rhs_form 1 (u 0) f (snd r) tau m y (conj (le_n 1) (proj1 Hm)) (proj2 (Sf 0 (or_introl (le_n 1))))).
    rewrite (sumf_ext (fun p => sumf (fun j => QD p m j *! snd r j p y) 1 (m - 1))
               (fun p => sumf (fun j => QD p m j *! f j p y) 1 (m - 1))).
    2:{ intros p _. apply sumf_ext. intros j Hj. destruct (Sn j ltac:(lia)) as [Ej _].
        rewrite Ej, (Hcons j ltac:(lia)). f_equal. apply Hext. apply IH; lia. }
    rewrite (Hcoll m Hm y), sumf_ftot, <- (Hcons m Hm).
    rewrite <- (triangular_rows alpha (fun j p => f j p y) m Hsp Hm). ring.
  Qed.

  End Generic.

  Variable weights : nat -> K.
  Variable solve : nat -> V -> K -> V -> K -> V.
  Variable feval : K -> V -> nat -> V.

  Notation gi_solve := (gi_node_solve kO kadd kmul keqb dt t0 nodes solve).
  Notation imex_solve := (imex_node_solve kadd kmul dt t0 nodes solve).
  Notation imex_QD QI QE := (fun p => if Nat.eqb p 0 then QI else QE).

  (* THE SOLVER CONTRACT (what C12 checks on the shipped problem classes): for implicit part p,
     solve p rhs a u_guess t  returns w with  w - a * f_p(w, t) = rhs. *)
  Definition solver_contract (p : nat) : Prop :=
    forall rhs a ug t x, solve p rhs a ug t x -! a *! feval t (solve p rhs a ug t) p x = rhs x.

  Definition solve_ext (p : nat) : Prop :=
    forall (r1 r2 : V) a ug1 ug2 t, (forall x, r1 x = r2 x) -> forall x, solve p r1 a ug1 t x = solve p r2 a ug2 t x.
  (* the other half of the solver contract: the implicit equation has a unique solution *)
  Definition solver_left_inverse (p : nat) : Prop :=
    forall (w rhs : V) a ug t, (forall x, w x -! a *! feval t w p x = rhs x) -> forall x, solve p rhs a ug t x = w x.

  (* generic_implicit skips the solve exactly when the equation to solve is  w = rhs; RungeKutta when the diagonal entry is 0 *)
  Lemma gi_node_contract QI : solver_contract 0 -> forall rhs m uold x,
    gi_solve QI rhs m uold x -! (dt *! QI m m) *! feval (tn m) (gi_solve QI rhs m uold) 0 x = rhs x.
  Proof.
    intros Hc rhs m uold x. unfold gi_node_solve.
    destruct (keqb (dt *! QI m m) kO) eqn:Eb; [apply keqb_true in Eb; rewrite Eb; ring | apply Hc].
  Qed.

  Lemma gi_node_unique QI : solver_left_inverse 0 -> forall (w rhs : V) m uold,
    (forall x, w x -! (dt *! QI m m) *! feval (tn m) w 0 x = rhs x) -> forall x, gi_solve QI rhs m uold x = w x.
  Proof.
    intros Hli w rhs m uold H x. unfold gi_node_solve.
    destruct (keqb (dt *! QI m m) kO) eqn:Eb; [|apply Hli, H]. apply keqb_true in Eb. rewrite <- H, Eb. ring.
  Qed.

  Lemma rk_node_contract A : solver_contract 0 -> forall rhs m uold x,
    rk_node_solve kO kadd kmul keqb dt t0 nodes solve A rhs m uold x
    -! (dt *! A m m) *! feval (tn m) (rk_node_solve kO kadd kmul keqb dt t0 nodes solve A rhs m uold) 0 x = rhs x.
  Proof.
    intros Hc rhs m uold x. unfold rk_node_solve.
    destruct (keqb (A m m) kO) eqn:Eb; [apply keqb_true in Eb; rewrite Eb; ring | apply Hc].
  Qed.

  Theorem gi_sweep_matrix_form QI u f tau :
    solver_contract 0 ->
    let r := gi_update kO kadd kmul ksub keqb M dt t0 nodes Q solve feval QI u f tau in
    (forall j, j = 0 \/ M < j -> fst r j = u j /\ snd r j = f j) /\
    forall m, 1 <= m <= M ->
      snd r m = feval (tn m) (fst r m) /\
      forall x,
        fst r m x -! dt *! sumf (fun j => QI m j *! snd r j 0 x) 1 m
        = u 0 x +! dt *! sumf (fun j => (Q m j -! QI m j) *! f j 0 x) 1 M +! tauval tau m x.
  Proof.
    intros Hc r. unfold gi_update, update_nodes in r.
    destruct (update_nodes_generic 1 feval (fun _ => QI) (gi_solve QI) 1 (fun w => w) (fun m => dt *! QI m m) (u 0) u f tau
                (le_n 1) (gi_node_contract QI Hc)) as [Gf Gn]. fold r in Gf, Gn.
    split; [exact Gf|]. intros m Hm. destruct (Gn m Hm) as [E H]. split; [exact E|]. intros x. specialize (H x).
    cbn [sumf] in H. rewrite sumf_last, sumf_sub_coeff by lia. apply rearrange with (1 := H). ring.
  Qed.

  (* the implicit/explicit pair of preconditioners (QI, QE) under any gather: imex_1st_order (lo = 1, L the identity)
     and imex_1st_order_mass (lo = 0, L the mass matrix, which the solver inverts together with the implicit part) *)
  Lemma imex_pair_matrix_form QI QE lo (L : V -> V) (u0 : V) u f tau :
    lo <= 1 ->
    (forall rhs a ug t x, L (solve 0 rhs a ug t) x -! a *! feval t (solve 0 rhs a ug t) 0 x = rhs x) ->
    let r := sweep_loop kO kadd kmul dt t0 nodes 2 feval (imex_QD QI QE) (imex_solve QI) lo
               (gather kO kadd kmul ksub M dt Q 2 (imex_QD QI QE) lo u0 f tau) (seq 1 M) (u, f) in
    (forall j, j = 0 \/ M < j -> fst r j = u j /\ snd r j = f j) /\
    forall m, 1 <= m <= M ->
      snd r m = feval (tn m) (fst r m) /\
      forall x,
        L (fst r m) x -! dt *! sumf (fun j => QI m j *! snd r j 0 x) 1 m
                      -! dt *! sumf (fun j => QE m j *! snd r j 1 x) 1 (m - 1)
        = u0 x +! dt *! sumf (fun j => (Q m j -! QI m j) *! f j 0 x) 1 M
               +! dt *! sumf (fun j => (Q m j -! QE m j) *! f j 1 x) 1 M +! tauval tau m x.
  Proof.
    intros Hlo Hc r.
    destruct (update_nodes_generic 2 feval (imex_QD QI QE) (imex_solve QI) lo L (fun m => dt *! QI m m) u0 u f tau
                Hlo (fun rhs m uold => Hc rhs _ uold _)) as [Gf Gn]. fold r in Gf, Gn.
    split; [exact Gf|]. intros m Hm. destruct (Gn m Hm) as [E H]. split; [exact E|]. intros x. specialize (H x).
    cbn [sumf Nat.eqb] in H. rewrite sumf_last, !sumf_sub_coeff by lia. apply rearrange with (1 := H). ring.
  Qed.

  Theorem imex_sweep_matrix_form QI QE u f tau :
    solver_contract 0 ->
    let r := imex_update kO kadd kmul ksub M dt t0 nodes Q solve feval QI QE u f tau in
    (forall j, j = 0 \/ M < j -> fst r j = u j /\ snd r j = f j) /\
    forall m, 1 <= m <= M ->
      snd r m = feval (tn m) (fst r m) /\
      forall x,
        fst r m x -! dt *! sumf (fun j => QI m j *! snd r j 0 x) 1 m
                  -! dt *! sumf (fun j => QE m j *! snd r j 1 x) 1 (m - 1)
        = u 0 x +! dt *! sumf (fun j => (Q m j -! QI m j) *! f j 0 x) 1 M
                +! dt *! sumf (fun j => (Q m j -! QE m j) *! f j 1 x) 1 M +! tauval tau m x.
  Proof.
    intros Hc. exact (imex_pair_matrix_form QI QE 1 (fun w => w) (u 0) u f tau (le_n 1) Hc).
  Qed.

  Theorem expl_sweep_matrix_form QE u f tau :
    let r := expl_update kO kadd kmul ksub M dt t0 nodes Q feval QE u f tau in
    (forall j, j = 0 \/ M < j -> fst r j = u j /\ snd r j = f j) /\
    forall m, 1 <= m <= M ->
      snd r m = feval (tn m) (fst r m) /\
      forall x,
        fst r m x -! dt *! sumf (fun j => QE m j *! snd r j 0 x) 1 (m - 1)
        = u 0 x +! dt *! sumf (fun j => (Q m j -! QE m j) *! f j 0 x) 1 M +! tauval tau m x.
  Proof.
    intros r. unfold expl_update, update_nodes in r.
    destruct (update_nodes_generic 1 feval (fun _ => QE) (@expl_node_solve K X) 1 (fun w => w) (fun _ => kO) (u 0) u f tau (le_n 1))
      as [Gf Gn]; [intros; unfold expl_node_solve; ring|]. fold r in Gf, Gn.
    split; [exact Gf|]. intros m Hm. destruct (Gn m Hm) as [E H]. split; [exact E|]. intros x. specialize (H x).
    cbn [sumf] in H. rewrite sumf_sub_coeff. apply rearrange with (1 := H). ring.
  Qed.

  Theorem end_point_copy np do_coll (u : nat -> V) f tau :
    do_coll = false ->
    end_point kO kadd kmul M dt weights np true do_coll u f tau = u M.
  Proof. intros ->. reflexivity. Qed.

  Theorem end_point_quadrature np rin do_coll (u : nat -> V) f tau x :
    rin && negb do_coll = false ->
    end_point kO kadd kmul M dt weights np rin do_coll u f tau x
    = u 0 x +! dt *! sumf (fun m => weights m *! ftot kO kadd np (f m) x) 1 M +! tauval tau M x.
  Proof.
    intros E. unfold end_point. rewrite E, tauval_spec, accum_spec. unfold vscale. rewrite sumf_scal_l. reflexivity.
  Qed.

  Theorem residual_is_defect np (u : nat -> V) f tau m x :
    residual_vec kO kadd kmul ksub M dt Q np u f tau m x
    = u 0 x +! dt *! sumf (fun j => Q m j *! ftot kO kadd np (f j) x) 1 M +! tauval tau m x -! u m x.
  Proof.
    cbv beta zeta delta [residual_vec]. rewrite tauval_spec. unfold vadd, vsub.
    rewrite integrate_is_dtQF. ring.
  Qed.

  (* zero residual = the collocation problem  U = u0 + dt Q F(U) + tau,  whatever the number of parts *)
  Lemma residual_zero_iff np (u : nat -> V) f tau m x :
    residual_vec kO kadd kmul ksub M dt Q np u f tau m x = kO <->
    u m x = u 0 x +! dt *! sumf (fun j => Q m j *! ftot kO kadd np (f j) x) 1 M +! tauval tau m x.
  Proof.
    rewrite residual_is_defect. split; intros H; [symmetry; apply rearrange with (1 := H) | rewrite <- H]; ring.
  Qed.

  (* the collocation problem  U = u0 + dt Q F(U) + tau  (one part) *)
  Definition collocation1 (u : nat -> V) (f : nat -> nat -> V) (tau : nat -> option V) : Prop :=
    forall m, 1 <= m <= M -> forall x,
      u m x = u 0 x +! dt *! sumf (fun j => Q m j *! f j 0 x) 1 M +! tauval tau m x.

  Theorem residual_zero_iff_collocation (u : nat -> V) f tau m x :
    residual_vec kO kadd kmul ksub M dt Q 1 u f tau m x = kO <->
    u m x = u 0 x +! dt *! sumf (fun j => Q m j *! f j 0 x) 1 M +! tauval tau m x.
  Proof. rewrite <- sumf_ftot1. apply residual_zero_iff. Qed.

  Lemma gi_split QI : lower_triangular QI -> triangular_split 1 (fun _ => QI) (fun m => dt *! QI m m).
  Proof. intros H. split; [lia | split; [exact H | split; [intros p Hp; lia | reflexivity]]]. Qed.

  (* ANY fixed point of the generic_implicit sweep, for ANY lower-triangular preconditioner, solves the
     collocation problem: the preconditioner can change the iteration count but never the answer. *)
  Theorem gi_fixed_point_is_collocation QI u f tau :
    solver_contract 0 -> feval_ext feval -> lower_triangular QI -> consistent feval u f ->
    let r := gi_update kO kadd kmul ksub keqb M dt t0 nodes Q solve feval QI u f tau in
    (forall m, 1 <= m <= M -> forall x, fst r m x = u m x) ->
    collocation1 u f tau.
  Proof.
    intros Hc Hext Htri Hcons r Hfix m Hm x. rewrite <- sumf_ftot1.
    exact (fixed_point_is_collocation_generic 1 feval (fun _ => QI) (gi_solve QI) _ u f tau (gi_split QI Htri) (gi_node_contract QI Hc)
             Hext Hcons Hfix m Hm x).
  Qed.

  (* Conversely the collocation solution is a fixed point of the sweep (uses uniqueness of the solve). *)
  Theorem gi_collocation_is_fixed_point QI u f tau :
    solver_left_inverse 0 -> feval_ext feval -> lower_triangular QI -> consistent feval u f ->
    collocation1 u f tau ->
    let r := gi_update kO kadd kmul ksub keqb M dt t0 nodes Q solve feval QI u f tau in
    forall m, 1 <= m <= M -> forall x, fst r m x = u m x.
  Proof.
    intros Hli Hext Htri Hcons Hcoll.
    apply (collocation_is_fixed_point_generic 1 feval (fun _ => QI) (gi_solve QI) _ u f tau (gi_split QI Htri)); [exact (gi_node_unique QI Hli)|assumption..|].
    intros m Hm x. rewrite sumf_ftot1. apply Hcoll, Hm.
  Qed.

  Definition collocation2 (u : nat -> V) (f : nat -> nat -> V) (tau : nat -> option V) : Prop :=
    forall m, 1 <= m <= M -> forall x,
      u m x = u 0 x +! dt *! sumf (fun j => Q m j *! (f j 0 x +! f j 1 x)) 1 M +! tauval tau m x.

  Theorem residual_zero_iff_collocation2 (u : nat -> V) f tau m x :
    residual_vec kO kadd kmul ksub M dt Q 2 u f tau m x = kO <->
    u m x = u 0 x +! dt *! sumf (fun j => Q m j *! (f j 0 x +! f j 1 x)) 1 M +! tauval tau m x.
  Proof. rewrite <- sumf_ftot2. apply residual_zero_iff. Qed.

  Lemma imex_split QI QE : lower_triangular QI -> strictly_lower_triangular QE ->
    triangular_split 2 (imex_QD QI QE) (fun m => dt *! QI m m).
  Proof.
    intros Hi He. split; [lia | split; [exact Hi | split; [|reflexivity]]].
    intros p Hp. replace p with 1 by lia. exact He.
  Qed.

  (* any fixed point of the IMEX sweep (any lower-triangular QI, any strictly lower-triangular QE) solves
     the collocation problem with the FULL right-hand side f_impl + f_expl *)
  Theorem imex_fixed_point_is_collocation QI QE u f tau :
    solver_contract 0 -> feval_ext feval -> lower_triangular QI -> strictly_lower_triangular QE -> consistent feval u f ->
    let r := imex_update kO kadd kmul ksub M dt t0 nodes Q solve feval QI QE u f tau in
    (forall m, 1 <= m <= M -> forall x, fst r m x = u m x) ->
    collocation2 u f tau.
  Proof.
    intros Hc Hext Htri Hstri Hcons r Hfix m Hm x. rewrite <- sumf_ftot2.
    exact (fixed_point_is_collocation_generic 2 feval _ (imex_solve QI) _ u f tau (imex_split QI QE Htri Hstri)
             (fun rhs m uold => Hc rhs _ uold _) Hext Hcons Hfix m Hm x).
  Qed.

  Theorem imex_collocation_is_fixed_point QI QE u f tau :
    solver_left_inverse 0 -> feval_ext feval -> lower_triangular QI -> strictly_lower_triangular QE -> consistent feval u f ->
    collocation2 u f tau ->
    let r := imex_update kO kadd kmul ksub M dt t0 nodes Q solve feval QI QE u f tau in
    forall m, 1 <= m <= M -> forall x, fst r m x = u m x.
  Proof.
    intros Hli Hext Htri Hstri Hcons Hcoll.
    apply (collocation_is_fixed_point_generic 2 feval _ (imex_solve QI) _ u f tau (imex_split QI QE Htri Hstri)
             (fun w rhs m uold => Hli w rhs _ uold _) Hext Hcons).
    intros m Hm x. rewrite sumf_ftot2. apply Hcoll, Hm.
  Qed.

  Lemma expl_split QE : strictly_lower_triangular QE -> triangular_split 1 (fun _ => QE) (fun _ => kO).
  Proof.
    intros H. split; [lia|]. split; [intros m j Hmj; apply H; lia|]. split; [intros p Hp; lia|].
    intros m. rewrite H by lia. ring.
  Qed.

  (* explicit sweeper: no solver at all, so BOTH directions hold unconditionally (strictly lower-triangular QE) *)
  Theorem expl_fixed_point_is_collocation QE u f tau :
    feval_ext feval -> strictly_lower_triangular QE -> consistent feval u f ->
    let r := expl_update kO kadd kmul ksub M dt t0 nodes Q feval QE u f tau in
    (forall m, 1 <= m <= M -> forall x, fst r m x = u m x) ->
    collocation1 u f tau.
  Proof.
    intros Hext Hstri Hcons r Hfix m Hm x. rewrite <- sumf_ftot1.
    apply (fixed_point_is_collocation_generic 1 feval _ (@expl_node_solve K X) _ u f tau (expl_split QE Hstri)); [|assumption..].
    intros. unfold expl_node_solve. ring.
  Qed.

  Theorem expl_collocation_is_fixed_point QE u f tau :
    feval_ext feval -> strictly_lower_triangular QE -> consistent feval u f -> collocation1 u f tau ->
    let r := expl_update kO kadd kmul ksub M dt t0 nodes Q feval QE u f tau in
    forall m, 1 <= m <= M -> forall x, fst r m x = u m x.
  Proof.
    intros Hext Hstri Hcons Hcoll.
    apply (collocation_is_fixed_point_generic 1 feval _ (@expl_node_solve K X) _ u f tau (expl_split QE Hstri)); [|assumption..|].
    - intros w rhs m uold H x. rewrite <- H. unfold expl_node_solve. ring.
    - intros m Hm x. rewrite sumf_ftot1. apply Hcoll, Hm.
  Qed.

  Notation mi_loop := (mi_loop kadd kmul ksub dt t0 nodes solve feval).

  Definition mi_rhs1 (Q1 : nat -> nat -> K) (g : nat -> V) (fn : nat -> nat -> V) (m : nat) : V :=
    accum kadd (g m) 1 (m - 1) (fun j => vscale kmul (dt *! Q1 m j) (fn j 0)).
  Definition mi_u1 (Q1 : nat -> nat -> K) (g : nat -> V) (fn : nat -> nat -> V) (w : V) (m : nat) : V :=
    solve 0 (mi_rhs1 Q1 g fn m) (dt *! Q1 m m) w (tn m).
  Definition mi_rhs2 (Q1 Q2 : nat -> nat -> K) (g q2 : nat -> V) (fn : nat -> nat -> V) (w : V) (m : nat) : V :=
    accum kadd (vsub ksub (mi_u1 Q1 g fn w m) (q2 m)) 1 (m - 1) (fun j => vscale kmul (dt *! Q2 m j) (fn j 1)).

  (* the two-solve node loop: w is the old value of the node, the guess of the first solve *)
  Lemma mi_loop_spec Q1 Q2 (g q2 : nat -> V) : forall n k (u' : nat -> V) (f' : nat -> nat -> V),
    let r := mi_loop Q1 Q2 g q2 (seq k n) (u', f') in
    (forall j, j < k \/ k + n <= j -> fst r j = u' j /\ snd r j = f' j) /\
    (forall m, k <= m < k + n ->
       snd r m = feval (tn m) (fst r m) /\
       fst r m = solve 1 (mi_rhs2 Q1 Q2 g q2 (snd r) (u' m) m) (dt *! Q2 m m) (mi_u1 Q1 g (snd r) (u' m) m) (tn m)).
  Proof.
    apply (pair_loop_spec (fun m fn w => solve 1 (mi_rhs2 Q1 Q2 g q2 fn w m) (dt *! Q2 m m) (mi_u1 Q1 g fn w m) (tn m))
             (fun m w => feval (tn m) w) (mi_loop Q1 Q2 g q2)); [reflexivity..|].
    intros m fn fn' w H.
    assert (E : mi_u1 Q1 g fn w m = mi_u1 Q1 g fn' w m).
    { unfold mi_u1, mi_rhs1. f_equal. apply accum_ext. intros j Hj. rewrite H by lia. reflexivity. }
    unfold mi_rhs2. rewrite E. f_equal. apply accum_ext. intros j Hj. rewrite H by lia. reflexivity.
  Qed.

  (* multi_implicit.update_nodes: two successive implicit solves per node.  With u* the first-stage value,
       u*_m - dt Q1[m,m] f1(u*_m) - dt sum_{j<m} Q1[m,j] f1(U_new_j) = u0 + dt sum_j (Q - Q1)[m,j] f1(U_old_j) + dt sum_j Q[m,j] f2(U_old_j) + tau_m
       U_new_m - dt sum_{j<=m} Q2[m,j] f2(U_new_j) = u*_m - dt sum_j Q2[m,j] f2(U_old_j)                                           *)
  Theorem mi_sweep_two_stage_form Q1 Q2 u f tau :
    solver_contract 0 -> solver_contract 1 ->
    let r := mi_update kO kadd kmul ksub M dt t0 nodes Q solve feval Q1 Q2 u f tau in
    (forall j, j = 0 \/ M < j -> fst r j = u j /\ snd r j = f j) /\
    forall m, 1 <= m <= M ->
      snd r m = feval (tn m) (fst r m) /\
      exists ustar : V, forall x,
        ustar x -! dt *! Q1 m m *! feval (tn m) ustar 0 x -! dt *! sumf (fun j => Q1 m j *! snd r j 0 x) 1 (m - 1)
        = u 0 x +! dt *! sumf (fun j => (Q m j -! Q1 m j) *! f j 0 x) 1 M
                +! dt *! sumf (fun j => Q m j *! f j 1 x) 1 M +! tauval tau m x
        /\
        fst r m x -! dt *! sumf (fun j => Q2 m j *! snd r j 1 x) 1 m
        = ustar x -! dt *! sumf (fun j => Q2 m j *! f j 1 x) 1 M.
  Proof.
    intros Hc0 Hc1 r. unfold mi_update in r.
    set (g := mi_gather kO kadd kmul ksub M dt Q Q1 (u 0) f tau) in r.
    set (q2 := mi_Q2int kO kadd kmul M dt Q2 f) in r.
    destruct (mi_loop_spec Q1 Q2 g q2 M 1 u f) as [Sf Sn]. fold r in Sf, Sn.
    split; [intros j Hj; apply Sf; lia|].
    intros m Hm. destruct (Sn m ltac:(lia)) as [E1 E2]. split; [exact E1|].
    set (ustar := mi_u1 Q1 g (snd r) (u m) m) in E2. exists ustar. intros x. split.
    - assert (H : ustar x -! dt *! Q1 m m *! feval (tn m) ustar 0 x = mi_rhs1 Q1 g (snd r) m x) by apply Hc0.
      cbv beta zeta delta [mi_rhs1 g mi_gather] in H. rewrite accum_spec, tauval_spec in H. unfold vadd, vscale in H.
      rewrite accum_sub_spec, integrate_is_dtQF,
        sumf_ftot, !sumf_scal_l in H. cbn [sumf] in H.
      rewrite sumf_sub_coeff. apply rearrange with (1 := H). ring.
    - assert (H : fst r m x -! dt *! Q2 m m *! snd r m 1 x = mi_rhs2 Q1 Q2 g q2 (snd r) (u m) m x)
        by (rewrite E1, E2; apply Hc1).
      unfold mi_rhs2, q2, mi_Q2int in H. fold ustar in H. rewrite accum_spec in H. unfold vsub in H.
      rewrite accum_spec in H. unfold vzero, vscale in H. rewrite !sumf_scal_l in H.
      rewrite sumf_last by lia. apply rearrange with (1 := H). ring.
  Qed.

  (* any fixed point of the two-stage multi_implicit sweep (lower-triangular Q1, Q2) solves the collocation problem with the
     FULL right-hand side f_1 + f_2: the splitting changes the iteration, never the answer *)
  Theorem mi_fixed_point_is_collocation Q1 Q2 u f tau :
    solver_contract 0 -> solver_contract 1 -> feval_ext feval -> lower_triangular Q1 -> lower_triangular Q2 -> consistent feval u f ->
    let r := mi_update kO kadd kmul ksub M dt t0 nodes Q solve feval Q1 Q2 u f tau in
    (forall m, 1 <= m <= M -> forall x, fst r m x = u m x) ->
    collocation2 u f tau.
  Proof.
    intros Hc0 Hc1 Hext Ht1 Ht2 Hcons r Hfix m Hm x.
    destruct (mi_sweep_two_stage_form Q1 Q2 u f tau Hc0 Hc1) as [_ Hn]. fold r in Hn.
    assert (Hf : forall j p y, 1 <= j <= M -> snd r j p y = f j p y).
    { intros j p y Hj. destruct (Hn j Hj) as [E _]. rewrite E, (Hcons j Hj). apply Hext, Hfix, Hj. }
    assert (Hrow : forall (A : nat -> nat -> K) p y, lower_triangular A ->
              sumf (fun j => A m j *! snd r j p y) 1 m = sumf (fun j => A m j *! f j p y) 1 M)
      by (intros A p y Ht; apply (lower_row A _ _ m Ht Hm); intros j Hj; apply Hf; lia).
    destruct (Hn m Hm) as [_ [ustar H]].
    (* second stage at the fixed point: the intermediate value IS the node value *)
    assert (Hstar : forall y, ustar y = u m y).
    { intros y. destruct (H y) as [_ H2]. rewrite (Hrow Q2 1 y Ht2), Hfix in H2 by exact Hm.
      symmetry. apply rearrange with (1 := H2). ring. }
    destruct (H x) as [H1 _].
    rewrite (Hext _ ustar (u m) Hstar), <- (Hcons m Hm), Hstar in H1.
    pose proof (Hrow Q1 0 x Ht1) as T. rewrite sumf_last, (Hf m 0 x Hm) in T by lia.
    rewrite sumf_sub_coeff in H1. rewrite <- sumf_ftot2, sumf_ftot. cbn [sumf].
    apply rearrange with (1 := H1). rewrite <- T. ring.
  Qed.

  (* Runge-Kutta sweepers, any number of parts (one: RungeKutta, two: RungeKuttaIMEX): stage m satisfies the stage equation
     with the stages before it; part 0 is the implicit one *)
  Lemma rk_stage_form_parts np QDs u f :
    solver_contract 0 ->
    let r := rk_update kO kadd kmul keqb M dt t0 nodes solve feval np QDs u f in
    (forall j, j = 0 \/ M < j -> fst r j = u j /\ snd r j = f j) /\
    forall m, 1 <= m <= M ->
      snd r m = feval (tn m) (fst r m) /\
      forall x, fst r m x -! dt *! QDs 0 m m *! snd r m 0 x
                -! dt *! sumf (fun p => sumf (fun j => QDs p m j *! snd r j p x) 1 (m - 1)) 0 np = u 0 x.
  Proof.
    intros Hc r. unfold rk_update in r.
    destruct (sweep_loop_spec np feval QDs
                (rk_node_solve kO kadd kmul keqb dt t0 nodes solve (QDs 0)) 1 (fun _ => u 0) M 1 u f) as [Sf Sn].
    fold r in Sf, Sn. split; [intros j Hj; apply Sf; lia|].
    intros m Hm. destruct (Sn m ltac:(lia)) as [E1 E2]. split; [exact E1|]. intros x.
    assert (H : fst r m x -! (dt *! QDs 0 m m) *! snd r m 0 x
                = accum kadd (u 0) 1 (m - 1) (dqd_term kO kadd kmul dt np QDs (snd r) m) x).
    { rewrite E1, E2. apply rk_node_contract, Hc. }
    rewrite accum_spec in H. unfold dqd_term, vscale in H.
    rewrite sumf_scal, sumf_qd_term in H.
    apply rearrange with (1 := H). ring.
  Qed.

  Theorem rk_stage_form (A : nat -> nat -> K) u f :
    solver_contract 0 ->
    let r := rk_update kO kadd kmul keqb M dt t0 nodes solve feval 1 (fun _ => A) u f in
    (forall j, j = 0 \/ M < j -> fst r j = u j /\ snd r j = f j) /\
    forall m, 1 <= m <= M ->
      snd r m = feval (tn m) (fst r m) /\
      forall x, fst r m x -! dt *! sumf (fun j => A m j *! snd r j 0 x) 1 m = u 0 x.
  Proof.
    intros Hc r. destruct (rk_stage_form_parts 1 (fun _ => A) u f Hc) as [Gf Gn]. fold r in Gf, Gn.
    split; [exact Gf|]. intros m Hm. destruct (Gn m Hm) as [E H]. split; [exact E|]. intros x. specialize (H x).
    cbn [sumf] in H. rewrite sumf_last by lia. apply rearrange with (1 := H). ring.
  Qed.

  (* contract of the mass problem's solve_system: mass(w) - a * f_impl(w, t) = rhs *)
  Definition mass_solver_contract (massop : V -> V) : Prop :=
    forall rhs a ug t x, massop (solve 0 rhs a ug t) x -! a *! feval t (solve 0 rhs a ug t) 0 x = rhs x.

  Theorem mass_sweep_matrix_form QI QE massop level0 u f tau :
    mass_solver_contract massop ->
    let r := mass_update kO kadd kmul ksub M dt t0 nodes Q solve feval QI QE massop level0 u f tau in
    let u0m := if level0 then massop (u 0) else u 0 in
    (forall j, j = 0 \/ M < j -> fst r j = u j /\ snd r j = f j) /\
    forall m, 1 <= m <= M ->
      snd r m = feval (tn m) (fst r m) /\
      forall x,
        massop (fst r m) x -! dt *! sumf (fun j => QI m j *! snd r j 0 x) 1 m
                          -! dt *! sumf (fun j => QE m j *! snd r j 1 x) 1 (m - 1)
        = u0m x +! dt *! sumf (fun j => (Q m j -! QI m j) *! f j 0 x) 1 M
                +! dt *! sumf (fun j => (Q m j -! QE m j) *! f j 1 x) 1 M +! tauval tau m x.
  Proof.
    intros Hc. exact (imex_pair_matrix_form QI QE 0 massop _ u f tau (Nat.le_0_l 1) Hc).
  Qed.

End SweepProofs.
