(* C03 — proofs about Model/Stopping.v: facts about `chain` and `round`, and the bound on the iteration counter of a block. *)
From Coq Require Import List Arith Bool Lia.
From PySDC Require Import Model.Stopping.
Import ListNotations.

Lemma conv_budget maxiter iter sweep i : maxiter <= iter -> fcont i = false -> conv maxiter iter sweep i = true.
Proof.
  unfold conv. intros H ->. apply Nat.leb_le in H. rewrite H. reflexivity.
Qed.

Lemma chain_seed cs : forall p j, nth j (chain p cs) false = true -> p = true.
Proof.
  induction cs as [|c cs IH]; intros p j H; cbn [chain] in H.
  - destruct j; discriminate H.
  - destruct j as [|j]; cbn [nth] in H; [|apply IH in H]; apply andb_prop in H as [_ H]; exact H.
Qed.

Lemma chain_all_true p cs : p = true -> forallb (fun b => b) cs = true -> chain p cs = map (fun _ => true) cs.
Proof.
  revert p. induction cs as [|c cs IH]; intros p -> H; cbn [chain map]; [reflexivity|].
  cbn [forallb] in H. apply andb_prop in H as [-> H]. cbn. f_equal. apply IH; [reflexivity|exact H].
Qed.

Lemma chain_length p cs : length (chain p cs) = length cs.
Proof. revert p. induction cs as [|c cs IH]; intros p; cbn [chain length]; [reflexivity|]. rewrite IH. reflexivity. Qed.

Lemma forallb_consts {A} (l : list A) : forallb (fun b => b) (map (fun _ => true) l) = true.
Proof. induction l; [reflexivity | assumption]. Qed.

(* at the iteration budget every running step is declared done (no force_continue): hence nobody
   increments its counter beyond maxiter *)
Lemma round_at_budget maxiter sweep atd ins :
  (forall i, In i ins -> fcont i = false) ->
  round maxiter sweep atd maxiter ins = map (fun _ => true) ins.
Proof.
  intros Hf. unfold round, round_done.
  rewrite (map_ext_in (conv maxiter maxiter sweep) (fun _ => true))
    by (intros i Hi; apply conv_budget; [lia | apply Hf, Hi]).
  rewrite (chain_all_true true _ eq_refl (forallb_consts ins)), forallb_consts, !map_map. destruct atd; reflexivity.
Qed.

Lemma In_firstn {A} (x : A) n l : In x (firstn n l) -> In x l.
Proof. intros H. rewrite <- (firstn_skipn n l). apply in_or_app. left. exact H. Qed.

Lemma filter_all_true {A} (l : list A) : filter (fun b => b) (map (fun _ => true) l) = map (fun _ => true) l.
Proof. induction l; cbn; [reflexivity|]. f_equal. assumption. Qed.

Lemma run_block_zero maxiter sweep atd : forall rounds k, run_block maxiter sweep atd k 0 rounds = [].
Proof.
  induction rounds as [|ins rest IH]; intros k; cbn [run_block repeat]; [reflexivity|].
  cbn [firstn]. unfold round, round_done. cbn [map chain]. destruct atd; cbn; apply IH.
Qed.

(* iteration counter never exceeds the budget: every finished step of a block reports k <= maxiter,
   for every sequence of inputs (residual histories) in which nobody forces continuation *)
Theorem iter_le_maxiter maxiter sweep atd : forall rounds k nrun,
  k <= maxiter ->
  (forall ins i, In ins rounds -> In i ins -> fcont i = false) ->
  forall n, In (Some n) (run_block maxiter sweep atd k nrun rounds) -> n <= maxiter.
Proof.
  induction rounds as [|ins rest IH]; intros k nrun Hk Hf n Hin; cbn [run_block] in Hin.
  - apply repeat_spec in Hin. discriminate Hin.
  - apply in_app_or in Hin as [Hin|Hin].
    + apply repeat_spec in Hin. injection Hin as ->. exact Hk.
    + destruct (Nat.eq_dec k maxiter) as [->|Hne].
      * (* at the budget all running steps are done: nothing remains running *)
        rewrite round_at_budget in Hin.
        2:{ intros i Hi. apply (Hf ins i); [left; reflexivity|]. eapply In_firstn; exact Hi. }
        rewrite filter_all_true, !map_length, Nat.sub_diag in Hin.
        rewrite run_block_zero in Hin. contradiction.
      * apply (IH (S k) _ ltac:(lia)) in Hin; [exact Hin|].
        intros ins' i Hi1 Hi2. apply (Hf ins' i); [right; exact Hi1 | exact Hi2].
Qed.
