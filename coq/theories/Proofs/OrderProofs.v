(* C04 — proofs: sums and matrix-vector algebra over Q, the Neumann expansion of the stage system, error
   propagation and order gain of SDC sweeps for the actual iterates, the IMEX bivariate table, and what the
   dyadic coefficient computations and validators of Model/Order.v compute.  The property theorems, with the
   shorter proofs, are in Props/C04.v. *)
From Coq Require Import ZArith QArith Qabs List Bool Lia.
From PySDC Require Import Base.Dyadic Base.DyadicFast Model.Order.
Import ListNotations.
Open Scope Q_scope.

Definition veqn (n : nat) (x y : vec) : Prop := forall i, (i < n)%nat -> x i == y i.
Definition veq (x y : vec) : Prop := forall i, x i == y i.

Lemma veq_veqn n x y : veq x y -> veqn n x y.
Proof. intros H i _. apply H. Qed.

Lemma bigsum_ext n f g : (forall j, (j < n)%nat -> f j == g j) -> bigsum n f == bigsum n g.
Proof.
  induction n as [|n IH]; intros H; cbn [bigsum]; [reflexivity|].
  rewrite IH by (intros; apply H; lia). rewrite (H n) by lia. reflexivity.
Qed.

Lemma bigsum_add n f g : bigsum n (fun j => f j + g j) == bigsum n f + bigsum n g.
Proof. induction n as [|n IH]; cbn [bigsum]; [ring|]. rewrite IH. ring. Qed.

Lemma bigsum_sub n f g : bigsum n (fun j => f j - g j) == bigsum n f - bigsum n g.
Proof. induction n as [|n IH]; cbn [bigsum]; [ring|]. rewrite IH. ring. Qed.

Lemma bigsum_scal n c f : bigsum n (fun j => c * f j) == c * bigsum n f.
Proof. induction n as [|n IH]; cbn [bigsum]; [ring|]. rewrite IH. ring. Qed.

Lemma bigsum_zero n f : (forall j, (j < n)%nat -> f j == 0) -> bigsum n f == 0.
Proof.
  induction n as [|n IH]; intros H; cbn [bigsum]; [reflexivity|].
  rewrite IH by (intros; apply H; lia). rewrite (H n) by lia. ring.
Qed.

Lemma bigsum_shift n f : bigsum (S n) f == f 0%nat + bigsum n (fun j => f (S j)).
Proof. induction n as [|n IH]; [cbn [bigsum]; ring|]. change (bigsum (S (S n)) f) with (bigsum (S n) f + f (S n)). rewrite IH. cbn [bigsum]. ring. Qed.

Lemma bigsum_single n f i : (i < n)%nat -> (forall j, (j < n)%nat -> j <> i -> f j == 0) -> bigsum n f == f i.
Proof.
  induction n as [|n IH]; intros Hi H; [lia|]. cbn [bigsum].
  destruct (Nat.eq_dec i n) as [->|Hne].
  - rewrite bigsum_zero; [ring|]. intros j Hj. apply H; lia.
  - rewrite IH by (try lia; intros; apply H; lia). rewrite (H n) by lia. ring.
Qed.

(* a sum whose terms split into a part that is shifted by one index and a part that is not *)
Lemma bigsum_split_shift m f P R :
  f 0%nat == R 0%nat -> (forall a, (a < m)%nat -> f (S a) == P a + R (S a)) -> f (S m) == P m ->
  bigsum (S (S m)) f == bigsum (S m) P + bigsum (S m) R.
Proof.
  intros H0 Hmid Hlast. rewrite bigsum_shift. rewrite (bigsum_shift m R).
  change (bigsum (S m) (fun j => f (S j))) with (bigsum m (fun j => f (S j)) + f (S m)).
  rewrite (bigsum_ext m (fun j => f (S j)) (fun j => P j + R (S j)) Hmid), bigsum_add.
  cbn [bigsum]. rewrite H0, Hlast. ring.
Qed.

Lemma zpow_one k : zpow 1 k == 1.
Proof. induction k as [|k IH]; cbn [zpow]; [reflexivity|]. rewrite IH. ring. Qed.

(* [vdot n b] is linear and only looks at the first n components; a matrix acts row by row *)
Lemma mv_vdot n A x i : mv n A x i = vdot n (A i) x.
Proof. reflexivity. Qed.

Lemma vdot_ext n b x y : veqn n x y -> vdot n b x == vdot n b y.
Proof. intros H. apply bigsum_ext. intros j Hj. rewrite (H j Hj). reflexivity. Qed.

Lemma vdot_veq n b x y : veq x y -> vdot n b x == vdot n b y.
Proof. intros H. apply vdot_ext, veq_veqn, H. Qed.

Lemma vdot_add n b x y : vdot n b (fun j => x j + y j) == vdot n b x + vdot n b y.
Proof. unfold vdot. rewrite <- bigsum_add. apply bigsum_ext. intros; ring. Qed.

Lemma vdot_sub n b x y : vdot n b (fun j => x j - y j) == vdot n b x - vdot n b y.
Proof. unfold vdot. rewrite <- bigsum_sub. apply bigsum_ext. intros; ring. Qed.

Lemma vdot_scal n b c x : vdot n b (fun j => c * x j) == c * vdot n b x.
Proof. unfold vdot. rewrite <- bigsum_scal. apply bigsum_ext. intros; ring. Qed.

Lemma vdot_zero n b : vdot n b vzero == 0.
Proof. apply bigsum_zero. intros; unfold vzero; ring. Qed.

Lemma vdot_bigsum n b (c : nat -> Q) (T : nat -> vec) N :
  vdot n b (fun j => bigsum N (fun m => c m * T m j)) == bigsum N (fun m => c m * vdot n b (T m)).
Proof.
  induction N as [|N IH]; cbn [bigsum].
  - apply vdot_zero.
  - rewrite vdot_add, IH, vdot_scal. reflexivity.
Qed.

Lemma mv_ext n A x y : veqn n x y -> veq (mv n A x) (mv n A y).
Proof. intros H i. exact (vdot_ext n (A i) x y H). Qed.

Lemma mv_veq n A x y : veq x y -> veq (mv n A x) (mv n A y).
Proof. intros H. apply mv_ext, veq_veqn, H. Qed.

Lemma mv_add n A x y i : mv n A (fun j => x j + y j) i == mv n A x i + mv n A y i.
Proof. exact (vdot_add n (A i) x y). Qed.

Lemma mv_scal n A c x i : mv n A (fun j => c * x j) i == c * mv n A x i.
Proof. exact (vdot_scal n (A i) c x). Qed.

Lemma mv_zero n A i : mv n A vzero i == 0.
Proof. exact (vdot_zero n (A i)). Qed.

Lemma mv_bigsum n A (c : nat -> Q) (T : nat -> vec) N i :
  mv n A (fun j => bigsum N (fun m => c m * T m j)) i == bigsum N (fun m => c m * mv n A (T m) i).
Proof. exact (vdot_bigsum n (A i) c T N). Qed.

Lemma mv_sub n A x y i : mv n A (fun j => x j - y j) i == mv n A x i - mv n A y i.
Proof. exact (vdot_sub n (A i) x y). Qed.

Lemma mv_ext_mat n A B x : (forall i j, A i j == B i j) -> veq (mv n A x) (mv n B x).
Proof. intros H i. unfold mv. apply bigsum_ext. intros j _. rewrite H. reflexivity. Qed.

Lemma mv_msub n A B x i : mv n (msub A B) x i == mv n A x i - mv n B x i.
Proof. unfold mv, msub. rewrite <- bigsum_sub. apply bigsum_ext. intros; ring. Qed.

Lemma mv_madd n A B x i : mv n (madd A B) x i == mv n A x i + mv n B x i.
Proof. unfold mv, madd. rewrite <- bigsum_add. apply bigsum_ext. intros; ring. Qed.

Lemma mv_mscal n c A x i : mv n (mscal c A) x i == c * mv n A x i.
Proof. unfold mv, mscal. rewrite <- bigsum_scal. apply bigsum_ext. intros; ring. Qed.

Lemma mpow_veq n A k x y : veq x y -> veq (mpow n A k x) (mpow n A k y).
Proof. intros H. induction k as [|k IH]; [exact H|]. cbn [mpow]. apply mv_veq, IH. Qed.

Lemma mpow_add n A k : forall x y i, mpow n A k (fun j => x j + y j) i == mpow n A k x i + mpow n A k y i.
Proof.
  induction k as [|k IH]; intros x y i; cbn [mpow]; [reflexivity|].
  rewrite <- mv_add. apply mv_veq. intro j. apply IH.
Qed.

Lemma mpow_scal n A k : forall c x i, mpow n A k (fun j => c * x j) i == c * mpow n A k x i.
Proof.
  induction k as [|k IH]; intros c x i; cbn [mpow]; [reflexivity|].
  rewrite <- mv_scal. apply mv_veq. intro j. apply IH.
Qed.

Lemma mpow_mv n A k : forall x i, mpow n A k (mv n A x) i == mpow n A (S k) x i.
Proof.
  induction k as [|k IH]; intros x i; [reflexivity|].
  change (mpow n A (S k) (mv n A x) i) with (mv n A (mpow n A k (mv n A x)) i).
  change (mpow n A (S (S k)) x i) with (mv n A (mpow n A (S k) x) i).
  apply mv_veq. intro j. apply IH.
Qed.

Theorem neumann_expansion n A e z Y :
  (forall i, Y i == e i + z * mv n A Y i) ->
  forall N i, Y i == bigsum N (fun j => zpow z j * mpow n A j e i) + zpow z N * mpow n A N Y i.
Proof.
  intros HY N. induction N as [|N IH]; intros i.
  - cbn [bigsum zpow mpow]. ring.
  - rewrite IH. cbn [bigsum zpow].
    (* A^N applied to the stage system itself *)
    rewrite (mpow_veq n A N Y (fun j => e j + z * mv n A Y j) HY i), mpow_add, mpow_scal, mpow_mv. ring.
Qed.

Lemma vdot_neumann n A b e z Y :
  (forall i, Y i == e i + z * mv n A Y i) ->
  forall N, vdot n b Y == bigsum N (fun j => zpow z j * vdot n b (mpow n A j e)) + zpow z N * vdot n b (mpow n A N Y).
Proof.
  intros HY N. rewrite (vdot_veq n b Y _ (neumann_expansion n A e z Y HY N)).
  rewrite vdot_add, vdot_bigsum, vdot_scal. reflexivity.
Qed.

(* last stage (stiffly accurate RK, SDC without collocation update): coefficient j of Y_i is (A^j 1)_i *)
Theorem stage_expansion n A z Y :
  (forall i, Y i == 1 + z * mv n A Y i) ->
  forall N i, Y i == bigsum N (fun j => zpow z j * stage_coef n A i j) + zpow z N * mpow n A N Y i.
Proof. intros HY N i. apply (neumann_expansion n A ones z Y HY N i). Qed.

(* one sweep in matrix form:  (I - z QD) U' = 1 + z (Q - QD) U  *)
Definition is_sweep (n : nat) (Qm QD : mat) (z : Q) (U U' : vec) : Prop :=
  forall i, U' i - z * mv n QD U' i == 1 + z * mv n (msub Qm QD) U i.
Definition is_coll (n : nat) (Qm : mat) (z : Q) (Uc : vec) : Prop :=
  forall i, Uc i == 1 + z * mv n Qm Uc i.

Theorem collocation_is_fixed_point n Qm QD z U :
  is_coll n Qm z U -> is_sweep n Qm QD z U U.
Proof. intros HC i. rewrite mv_msub. rewrite (HC i) at 1. ring. Qed.

(* the left-hand side of a sweep is linear *)
Lemma sweep_sub n L z X X' a b i :
  X i - z * mv n L X i == a -> X' i - z * mv n L X' i == b ->
  (X i - X' i) - z * mv n L (fun j => X j - X' j) i == a - b.
Proof. intros Ha Hb. rewrite mv_sub, <- Ha, <- Hb. ring. Qed.

(* the sweep of U minus the sweep that leaves the collocation solution fixed *)
Theorem error_propagation n Qm QD z U U' Uc :
  is_sweep n Qm QD z U U' -> is_coll n Qm z Uc ->
  forall i, (U' i - Uc i) - z * mv n QD (fun j => U' j - Uc j) i == z * mv n (msub Qm QD) (fun j => U j - Uc j) i.
Proof.
  intros HS HC i.
  rewrite (sweep_sub n QD z U' Uc _ _ i (HS i) (collocation_is_fixed_point n Qm QD z Uc HC i)), mv_sub. ring.
Qed.

Lemma Tser_S0 n Qm QD k : Tser n Qm QD (S k) 0 = ones.
Proof. reflexivity. Qed.

Lemma Tser_SS n Qm QD k m i :
  Tser n Qm QD (S k) (S m) i = mv n (QD k) (Tser n Qm QD (S k) m) i + mv n (msub Qm (QD k)) (Tser n Qm QD k m) i.
Proof. reflexivity. Qed.

Definition trunc (n : nat) (Qm : mat) (QD : nat -> mat) (z : Q) (k N : nat) : vec :=
  fun i => bigsum N (fun m => zpow z m * Tser n Qm QD k m i).

(* the truncated series satisfies the sweep equation up to its first omitted term *)
Lemma trunc_sweep n Qm QD z k N i :
  trunc n Qm QD z (S k) (S N) i - z * mv n (QD k) (trunc n Qm QD z (S k) (S N)) i
  == 1 + z * mv n (msub Qm (QD k)) (trunc n Qm QD z k (S N)) i - zpow z (S N) * Tser n Qm QD (S k) (S N) i.
Proof.
  unfold trunc at 1. rewrite bigsum_shift, Tser_S0.
  unfold trunc. rewrite !mv_bigsum. cbn [bigsum].
  setoid_replace (bigsum N (fun j => zpow z (S j) * Tser n Qm QD (S k) (S j) i))
    with (z * bigsum N (fun m => zpow z m * mv n (QD k) (Tser n Qm QD (S k) m) i)
          + z * bigsum N (fun m => zpow z m * mv n (msub Qm (QD k)) (Tser n Qm QD k m) i)).
  - rewrite Tser_SS. cbn [zpow]. unfold ones. ring.
  - rewrite <- !bigsum_scal, <- bigsum_add. apply bigsum_ext. intros j _. rewrite Tser_SS. cbn [zpow]. ring.
Qed.

Definition lower_tri (n : nat) (L : mat) : Prop := forall i j, (i < j < n)%nat -> L i j == 0.

Lemma tri_unique n L z W :
  lower_tri n L -> (forall i, (i < n)%nat -> ~ 1 - z * L i i == 0) ->
  (forall i, (i < n)%nat -> W i - z * mv n L W i == 0) ->
  forall i, (i < n)%nat -> W i == 0.
Proof.
  intros HL HD HW i. induction i as [i IH] using lt_wf_ind. intros Hi.
  (* row i of L W: columns below i vanish by induction, columns above by triangularity *)
  assert (Em : mv n L W i == L i i * W i).
  { unfold mv. rewrite (bigsum_single n _ i Hi); [reflexivity|].
    intros j Hj Hne. destruct (Nat.lt_ge_cases j i) as [Hlt|Hge].
    - rewrite (IH j Hlt Hj). ring.
    - rewrite (HL i j) by lia. ring. }
  assert (E : (1 - z * L i i) * W i == 0) by (rewrite <- (HW i Hi), Em; ring).
  apply Qmult_integral in E. destruct E as [E|E]; [destruct (HD i Hi E) | exact E].
Qed.

(* if (I - zL) X = c F and (I - zL) G = F  (on the first n components) then X = c G *)
Lemma tri_factor n L z c X F G :
  lower_tri n L -> (forall i, (i < n)%nat -> ~ 1 - z * L i i == 0) ->
  (forall i, (i < n)%nat -> X i - z * mv n L X i == c * F i) ->
  (forall i, (i < n)%nat -> G i - z * mv n L G i == F i) ->
  forall i, (i < n)%nat -> X i == c * G i.
Proof.
  intros HL HD HX HG i Hi.
  (* X - c G solves the homogeneous system: [sweep_sub] with the left-hand side of c G's sweep taken as it is,
     then linearity ([mv_scal]) and the equation for G *)
  assert (E : X i - c * G i == 0).
  { apply (tri_unique n L z (fun j => X j - c * G j) HL HD); [|exact Hi].
    intros i0 Hi0. rewrite (sweep_sub n L z X (fun j => c * G j) _ _ i0 (HX i0 Hi0) (Qeq_refl _)), mv_scal, <- (HG i0 Hi0). ring. }
  rewrite <- (Qplus_0_r (c * G i)), <- E. ring.
Qed.

(* ORDER GAIN for the actual iterates (lower-triangular preconditioners, any z at which the diagonal
   solves are possible): U^k - U_c = z^(k+1) g_k where g_0 = -Q U_c and g_(k+1) solves
   (I - z QD_k) g_(k+1) = (Q - QD_k) g_k — the g_k only ever divide by 1 - z QD_k[m,m] *)
Theorem order_gain n Qm QD z (U G : nat -> vec) Uc :
  (forall k, lower_tri n (QD k)) -> (forall k i, (i < n)%nat -> ~ 1 - z * QD k i i == 0) ->
  veq (U 0%nat) ones -> (forall k, is_sweep n Qm (QD k) z (U k) (U (S k))) -> is_coll n Qm z Uc ->
  (forall i, G 0%nat i == - mv n Qm Uc i) ->
  (forall k i, (i < n)%nat -> G (S k) i - z * mv n (QD k) (G (S k)) i == mv n (msub Qm (QD k)) (G k) i) ->
  forall k i, (i < n)%nat -> U k i - Uc i == zpow z (S k) * G k i.
Proof.
  intros HL HD H0 HS HC HG0 HG k. induction k as [|k IH]; intros i Hi.
  - rewrite (H0 i), (HC i), (HG0 i). unfold ones. cbn [zpow]. ring.
  - apply (tri_factor n (QD k) z _ (fun j => U (S k) j - Uc j) (mv n (msub Qm (QD k)) (G k)) _ (HL k) (HD k));
      [| apply HG | exact Hi].
    intros i0 Hi0. rewrite (error_propagation n Qm (QD k) z (U k) (U (S k)) Uc (HS k) HC i0).
    rewrite (mv_ext n (msub Qm (QD k)) (fun j => U k j - Uc j) (fun j => zpow z (S k) * G k j) IH i0).
    rewrite mv_scal. cbn [zpow]. ring.
Qed.

(* the same for the truncation defect of the formal series: U^k = sum_{m<=N} z^m T_{k,m} + z^(N+1) h_k *)
Theorem series_remainder n Qm QD z (U H : nat -> vec) N :
  (forall k, lower_tri n (QD k)) -> (forall k i, (i < n)%nat -> ~ 1 - z * QD k i i == 0) ->
  veq (U 0%nat) ones -> (forall k, is_sweep n Qm (QD k) z (U k) (U (S k))) ->
  (forall i, H 0%nat i == 0) ->
  (forall k i, (i < n)%nat -> H (S k) i - z * mv n (QD k) (H (S k)) i
                             == z * mv n (msub Qm (QD k)) (H k) i + Tser n Qm QD (S k) (S N) i) ->
  forall k i, (i < n)%nat -> U k i == trunc n Qm QD z k (S N) i + zpow z (S N) * H k i.
Proof.
  intros HL HD H0 HS HH0 HH k.
  assert (Claim : forall i, (i < n)%nat -> U k i - trunc n Qm QD z k (S N) i == zpow z (S N) * H k i).
  { induction k as [|k IH]; intros i Hi.
    - rewrite (H0 i), (HH0 i). unfold trunc. rewrite bigsum_shift.
      rewrite bigsum_zero by (intros; cbn [Tser]; unfold vzero; ring). cbn [Tser zpow]. unfold ones. ring.
    - apply (tri_factor n (QD k) z _ (fun j => U (S k) j - trunc n Qm QD z (S k) (S N) j)
               (fun j => z * mv n (msub Qm (QD k)) (H k) j + Tser n Qm QD (S k) (S N) j) _ (HL k) (HD k));
        [| apply HH | exact Hi].
      (* the defect obeys the sweep recursion with the first omitted term as forcing *)
      intros i0 Hi0.
      rewrite (sweep_sub n (QD k) z (U (S k)) (trunc n Qm QD z (S k) (S N)) _ _ i0 (HS k i0) (trunc_sweep n Qm QD z k N i0)).
      assert (E : mv n (msub Qm (QD k)) (U k) i0
                  == mv n (msub Qm (QD k)) (trunc n Qm QD z k (S N)) i0 + zpow z (S N) * mv n (msub Qm (QD k)) (H k) i0).
      { rewrite <- mv_scal, <- mv_add. apply mv_ext. intros j Hj. rewrite <- (IH j Hj). ring. }
      rewrite E. ring. }
  intros i Hi. rewrite <- (Claim i Hi). ring.
Qed.

(* non-vacuity of the hypotheses of [order_gain]: midpoint collocation (M = 1, Q = 1/2) with the
   implicit-Euler preconditioner (QD = 1) at z = 1/2:  U^k = 4/3 - (1/3)(-1/2)^k,  U_c = 4/3,  g_k = -(2/3)(-1)^k *)
Lemma and_mp (A B : Prop) : A -> (A -> B) -> A /\ B.
Proof. auto. Qed.

Example order_gain_instance :
  let n := 1%nat in
  let Qm : mat := fun _ _ => 1 # 2 in
  let QD : nat -> mat := fun _ _ _ => 1 in
  let z : Q := 1 # 2 in
  let U : nat -> vec := fun k _ => (4 # 3) - (1 # 3) * zpow (- (1 # 2)) k in
  let Uc : vec := fun _ => 4 # 3 in
  let G : nat -> vec := fun k _ => - (2 # 3) * zpow (- (1)) k in
  (forall k, lower_tri n (QD k)) /\ (forall k i, (i < n)%nat -> ~ 1 - z * QD k i i == 0) /\
  veq (U 0%nat) ones /\ (forall k, is_sweep n Qm (QD k) z (U k) (U (S k))) /\ is_coll n Qm z Uc /\
  (forall i, G 0%nat i == - mv n Qm Uc i) /\
  (forall k i, (i < n)%nat -> G (S k) i - z * mv n (QD k) (G (S k)) i == mv n (msub Qm (QD k)) (G k) i) /\
  (forall k i, (i < n)%nat -> U k i - Uc i == zpow z (S k) * G k i).
Proof.
  cbv beta zeta.
  apply and_mp; [intros k i j Hij; lia | intro H1].
  apply and_mp; [intros k i _ E; discriminate E | intro H2].
  apply and_mp; [intro i; reflexivity | intro H3].
  apply and_mp; [intros k i; unfold mv, msub; cbn [bigsum zpow]; ring | intro H4].
  apply and_mp; [intro i; unfold mv; cbn [bigsum]; ring | intro H5].
  apply and_mp; [intro i; unfold mv; cbn [bigsum zpow]; ring | intro H6].
  apply and_mp; [intros k i _; unfold mv, msub; cbn [bigsum zpow]; ring | intro H7].
  exact (order_gain 1 _ _ _ _ _ _ H1 H2 H3 H4 H5 H6 H7).
Qed.

Lemma Vtab_0S n AI AE b i : Vtab n AI AE 0 (S b) i = mv n AE (Vtab n AI AE 0 b) i.
Proof. reflexivity. Qed.
Lemma Vtab_S0 n AI AE a i : Vtab n AI AE (S a) 0 i = mv n AI (Vtab n AI AE a 0) i.
Proof. reflexivity. Qed.
Lemma Vtab_SS n AI AE a b i :
  Vtab n AI AE (S a) (S b) i = mv n AI (Vtab n AI AE a (S b)) i + mv n AE (Vtab n AI AE (S a) b) i.
Proof. reflexivity. Qed.

(* component i of the table is the coefficient table of the functionals "row i of AI", "row i of AE" *)
Lemma Vtab_imex_coef n AI AE a b i : (0 < a + b)%nat ->
  Vtab n AI AE a b i = imex_coef n AI AE (AI i) (AE i) a b.
Proof. destruct a, b; [lia | reflexivity ..]. Qed.

(* homogeneous part of total degree j *)
Definition Hdeg (n : nat) (AI AE : mat) (zI zE : Q) (j : nat) : vec :=
  fun i => bigsum (S j) (fun a => zpow zI a * zpow zE (j - a) * Vtab n AI AE a (j - a) i).

(* homogeneous part of total degree j of the IMEX stability function *)
Definition Cdeg (n : nat) (AI AE : mat) (bI bE : vec) (zI zE : Q) (j : nat) : Q :=
  bigsum (S j) (fun a => zpow zI a * zpow zE (j - a) * imex_coef n AI AE bI bE a (j - a)).

Lemma Cdeg_S n AI AE bI bE zI zE j :
  zI * vdot n bI (Hdeg n AI AE zI zE j) + zE * vdot n bE (Hdeg n AI AE zI zE j)
  == Cdeg n AI AE bI bE zI zE (S j).
Proof.
  unfold Hdeg. rewrite !vdot_bigsum. unfold Cdeg.
  rewrite (bigsum_split_shift j _
             (fun a => zI * (zpow zI a * zpow zE (j - a) * vdot n bI (Vtab n AI AE a (j - a))))
             (fun a => zE * (zpow zI a * zpow zE (j - a) * vdot n bE (Vtab n AI AE a (j - a))))).
  - rewrite !bigsum_scal. reflexivity.
  - rewrite !Nat.sub_0_r. cbn [imex_coef zpow]. ring.
  - intros a Ha. cbn [Nat.sub]. replace (j - a)%nat with (S (j - S a)) by lia. cbn [imex_coef zpow]. ring.
  - rewrite !Nat.sub_diag. cbn [imex_coef zpow]. ring.
Qed.

Theorem eval_table_is_power n AI AE zI zE : forall j,
  veq (Hdeg n AI AE zI zE j) (mpow n (madd (mscal zI AI) (mscal zE AE)) j ones).
Proof.
  induction j as [|j IH]; intro i.
  - unfold Hdeg. cbn [bigsum zpow mpow Nat.sub Vtab]. unfold ones. ring.
  - cbn [mpow]. rewrite <- (mv_veq n _ _ _ IH i), mv_madd, !mv_mscal.
    (* one more application of zI AI + zE AE: [Cdeg_S] for the functionals "row i" *)
    rewrite !mv_vdot, Cdeg_S.
    unfold Hdeg, Cdeg. apply bigsum_ext. intros a Ha. rewrite Vtab_imex_coef by lia. reflexivity.
Qed.

(* IMEX stage system  Y = 1 + zI AI Y + zE AE Y :  Y is the sum of the homogeneous parts built from the
   bivariate table, plus an explicit remainder of total degree N *)
Theorem imex_stage_expansion n AI AE zI zE Y :
  (forall i, Y i == 1 + (zI * mv n AI Y i + zE * mv n AE Y i)) ->
  forall N i, Y i == bigsum N (fun j => Hdeg n AI AE zI zE j i)
                    + mpow n (madd (mscal zI AI) (mscal zE AE)) N Y i.
Proof.
  intros HY N i.
  assert (HY' : forall i, Y i == ones i + 1 * mv n (madd (mscal zI AI) (mscal zE AE)) Y i).
  { intro i0. rewrite mv_madd, !mv_mscal, (HY i0). unfold ones. ring. }
  rewrite (neumann_expansion n _ ones 1 Y HY' N i), zpow_one, Qmult_1_l.
  apply Qplus_comp; [|reflexivity]. apply bigsum_ext. intros j _.
  rewrite zpow_one, (eval_table_is_power n AI AE zI zE j i). ring.
Qed.

(* the IMEX stability function  R = 1 + zI bI.Y + zE bE.Y  is the sum of its homogeneous parts, whose
   coefficients are exactly [imex_coef] (what check_order_imex compares with 1/(a! b!)) *)
Theorem imex_stability_expansion n AI AE bI bE zI zE Y :
  (forall i, Y i == 1 + (zI * mv n AI Y i + zE * mv n AE Y i)) ->
  forall N,
  1 + (zI * vdot n bI Y + zE * vdot n bE Y)
  == bigsum (S N) (fun j => Cdeg n AI AE bI bE zI zE j)
     + (zI * vdot n bI (mpow n (madd (mscal zI AI) (mscal zE AE)) N Y)
        + zE * vdot n bE (mpow n (madd (mscal zI AI) (mscal zE AE)) N Y)).
Proof.
  intros HY N.
  assert (E : forall b, vdot n b Y == bigsum N (fun j => vdot n b (Hdeg n AI AE zI zE j))
                                     + vdot n b (mpow n (madd (mscal zI AI) (mscal zE AE)) N Y)).
  { intro b. rewrite (vdot_veq n b Y _ (imex_stage_expansion n AI AE zI zE Y HY N)).
    rewrite vdot_add. apply Qplus_comp; [|reflexivity].
    rewrite <- (bigsum_ext N (fun m => 1 * vdot n b (Hdeg n AI AE zI zE m))) by (intros; ring).
    rewrite <- vdot_bigsum. apply vdot_veq. intro i. apply bigsum_ext. intros; ring. }
  (* the homogeneous parts of degree >= 1 come from those of the stages by [Cdeg_S] *)
  assert (C : bigsum (S N) (fun j => Cdeg n AI AE bI bE zI zE j)
              == 1 + (zI * bigsum N (fun j => vdot n bI (Hdeg n AI AE zI zE j))
                      + zE * bigsum N (fun j => vdot n bE (Hdeg n AI AE zI zE j)))).
  { rewrite bigsum_shift, <- (bigsum_ext N _ _ (fun j _ => Cdeg_S n AI AE bI bE zI zE j)), bigsum_add, !bigsum_scal.
    apply Qplus_comp; [|reflexivity]. unfold Cdeg. cbn [bigsum zpow Nat.sub imex_coef]. ring. }
  rewrite C, (E bI), (E bE). ring.
Qed.

Definition vofl (l : list dy) : vec := fun i => D2Q (nth i l d0).
Definition mofl (A : list (list dy)) : mat := fun i j => D2Q (nth j (nth i A []) d0).

Lemma mofl_row A i : mofl A i = vofl (nth i A []).
Proof. reflexivity. Qed.

Lemma vofl_nil i : vofl [] i == 0.
Proof. unfold vofl. destruct i; reflexivity. Qed.

Lemma vofl_veqn_refl n l : veqn n (vofl l) (vofl l).
Proof. intros i _. reflexivity. Qed.

(* the list v has n entries and represents x on the indices below n *)
Definition vrep (n : nat) (v : list dy) (x : vec) : Prop := length v = n /\ veqn n (vofl v) x.

(* A is an n x n table ([nth] beyond the last row gives the empty row) *)
Definition sq (n : nat) (A : list (list dy)) : Prop :=
  length A = n /\ forall i, length (nth i A []) = if (i <? n)%nat then n else 0%nat.

Lemma square_sq n A : square n A = true -> sq n A.
Proof.
  unfold square. intros [L%Nat.eqb_eq R]%andb_prop. split; [exact L|]. intros i.
  destruct (Nat.ltb_spec i n) as [Hi|Hi].
  - apply Nat.eqb_eq, (proj1 (forallb_forall _ _) R), nth_In. lia.
  - rewrite nth_overflow by lia. reflexivity.
Qed.

Lemma ddot_nil_r b : ddot b [] = d0.
Proof. destruct b; reflexivity. Qed.

Lemma nth_map_ddot b l j : nth j (map (ddot b) l) d0 = ddot b (nth j l []).
Proof. rewrite <- (ddot_nil_r b). apply map_nth. Qed.

Lemma ddot_sound r v n x : (length r <= n)%nat -> veqn n (vofl v) x ->
  D2Q (ddot r v) == vdot n (vofl r) x.
Proof.
  intros Hr Hv. rewrite <- (vdot_ext n (vofl r) _ _ Hv). clear x Hv. unfold vdot. revert v n Hr.
  induction r as [|a r IH]; intros v n Hn.
  - rewrite bigsum_zero; [reflexivity|]. intros j _. rewrite vofl_nil. ring.
  - destruct n as [|n]; [cbn in Hn; lia|]. destruct v as [|b v].
    + rewrite bigsum_zero; [reflexivity|]. intros j _. rewrite vofl_nil. ring.
    + cbn [ddot]. rewrite fadd_eq, D2Q_add, D2Q_mul, bigsum_shift, (IH v n) by (cbn in Hn; lia).
      unfold vofl. cbn [nth]. reflexivity.
Qed.

Lemma dones_sound n : veqn n (vofl (dones n)) ones.
Proof.
  intros i Hi. unfold vofl, dones. rewrite (nth_indep _ d0 d1), nth_repeat by (rewrite repeat_length; exact Hi).
  reflexivity.
Qed.

Lemma dones_length n : length (dones n) = n.
Proof. apply repeat_length. Qed.

Lemma vrep_dones n : vrep n (dones n) ones.
Proof. split; [apply dones_length | apply dones_sound]. Qed.

Lemma dmv_length A x : length (dmv A x) = length A.
Proof. apply map_length. Qed.

Lemma vofl_dmv A x i : vofl (dmv A x) i = D2Q (ddot (nth i A []) x).
Proof.
  unfold vofl, dmv. change d0 with (ddot [] x) at 1. rewrite (map_nth (fun r => ddot r x)). reflexivity.
Qed.

Lemma vrep_dmv n A v x : sq n A -> veqn n (vofl v) x -> vrep n (dmv A v) (mv n (mofl A) x).
Proof.
  intros HA Hv. split; [rewrite dmv_length; apply HA|].
  intros i _. rewrite vofl_dmv, mv_vdot, mofl_row.
  apply ddot_sound; [rewrite (proj2 HA); destruct (i <? n)%nat; lia | exact Hv].
Qed.

Lemma dvadd_sound u : forall v, length u = length v ->
  length (dvadd u v) = length u /\ veq (vofl (dvadd u v)) (fun i => vofl u i + vofl v i).
Proof.
  induction u as [|a u IH]; intros [|b v] H; try discriminate H; cbn [dvadd length].
  - split; [reflexivity|]. intro i. rewrite !vofl_nil. ring.
  - destruct (IH v) as [L E]; [cbn in H; lia|]. split; [rewrite L; reflexivity|].
    intros [|i]; unfold vofl; cbn [nth]; [rewrite fadd_eq; apply D2Q_add | apply E].
Qed.

Lemma vrep_dvadd n u v x y : vrep n u x -> vrep n v y -> vrep n (dvadd u v) (fun i => x i + y i).
Proof.
  intros [Lu Hu] [Lv Hv]. destruct (dvadd_sound u v) as [L E]; [congruence|]. split; [congruence|].
  intros i Hi. rewrite (E i), (Hu i Hi), (Hv i Hi). reflexivity.
Qed.

Lemma dpowers_length A p : forall x, length (dpowers A x p) = p.
Proof. induction p as [|p IH]; intros x; cbn [dpowers length]; [reflexivity|]. rewrite IH. reflexivity. Qed.

Lemma dpowers_sound n A : sq n A -> forall p v x j, (j < p)%nat -> veqn n (vofl v) x ->
  veqn n (vofl (nth j (dpowers A v p) [])) (mpow n (mofl A) j x).
Proof.
  intros HA. induction p as [|p IH]; intros v x j Hj Hv; [lia|].
  destruct j as [|j]; cbn [dpowers nth]; [exact Hv|].
  intros i Hi. rewrite <- mpow_mv. apply (IH (dmv A v) _ j); [lia | apply (vrep_dmv n A v x HA Hv) | exact Hi].
Qed.

Lemma dpowers_coef_sound n A b v x p j : sq n A -> (length b <= n)%nat -> (j < p)%nat -> veqn n (vofl v) x ->
  D2Q (ddot b (nth j (dpowers A v p) [])) == vdot n (vofl b) (mpow n (mofl A) j x).
Proof. intros HA Hb Hj Hv. apply ddot_sound; [exact Hb | apply dpowers_sound; assumption]. Qed.

Lemma zfact_pos j : (0 < zfact j)%Z.
Proof. induction j as [|j IH]; cbn [zfact]; lia. Qed.

Lemma qfact_zfact j : qfact j == inject_Z (zfact j).
Proof.
  induction j as [|j IH]; [reflexivity|]. cbn [qfact zfact]. rewrite IH, inject_Z_mult. reflexivity.
Qed.

Lemma forallb_fclose {X} (f g : X -> dy) tol l v :
  forallb (fun v => fleb (dabs (fsub (f v) (g v))) tol) l = true -> In v l -> Qabs (D2Q (f v) - D2Q (g v)) <= D2Q tol.
Proof. intros H Hv. apply fleb_abs_fsub_spec, (proj1 (forallb_forall _ l) H v Hv). Qed.

Lemma scaled_close_sound t c tol : (0 < t)%Z ->
  fleb (dabs (fsub (dmul (dZ t) c) d1)) (dmul (dZ t) tol) = true -> Qabs (D2Q c - 1 / inject_Z t) <= D2Q tol.
Proof.
  intros Ht H. apply fleb_abs_fsub_spec in H. rewrite !D2Q_mul, D2Q_dZ, D2Q_d1 in H.
  apply Qabs_div_bound; [|exact H]. change 0 with (inject_Z 0). rewrite <- Zlt_Qlt. exact Ht.
Qed.

Lemma series_ok_sound tol cs : forall ts, series_ok tol cs ts = true ->
  forall j, (j < length ts)%nat ->
  (0 < nth j ts 1)%Z /\ Qabs (D2Q (nth j cs d0) - 1 / inject_Z (nth j ts 1%Z)) <= D2Q tol.
Proof.
  induction cs as [|c cs IH]; intros [|t ts] H j Hj; try (cbn in Hj; lia); cbn [series_ok] in H; [discriminate|].
  apply andb_prop in H as [[H1%Z.ltb_lt H2]%andb_prop H3].
  destruct j as [|j]; cbn [nth].
  - split; [exact H1 | apply scaled_close_sound; assumption].
  - apply IH; [exact H3 | cbn in Hj; lia].
Qed.

(* the order validator's comparison is the series validator's with the targets j! *)
Lemma coefs_ok_from_series tol cs : forall j,
  coefs_ok_from tol j cs = series_ok tol cs (map zfact (seq j (length cs))).
Proof.
  induction cs as [|c cs IH]; intros j; cbn [coefs_ok_from length seq map series_ok]; [reflexivity|].
  rewrite IH. unfold coef_ok. cbv zeta. rewrite (proj2 (Z.ltb_lt _ _) (zfact_pos j)). reflexivity.
Qed.

Lemma coefs_ok_from_sound tol cs j0 : coefs_ok_from tol j0 cs = true ->
  forall j, (j < length cs)%nat -> Qabs (D2Q (nth j cs d0) - 1 / qfact (j0 + j)) <= D2Q tol.
Proof.
  rewrite coefs_ok_from_series. intros H j Hj.
  destruct (series_ok_sound tol cs _ H j) as [_ B]; [rewrite map_length, seq_length; exact Hj|].
  rewrite (map_nth zfact _ 0%nat j : nth j (map zfact _) 1%Z = _), seq_nth, <- qfact_zfact in B by exact Hj. exact B.
Qed.

(* the computed coefficient list really holds b . A^(j-1) 1 *)
Lemma dstab_coefs_sound A b p j :
  sq (length A) A -> (length b <= length A)%nat -> (j < p)%nat ->
  D2Q (nth j (dstab_coefs A b p) d0) == stab_coef (length A) (mofl A) (vofl b) (S j).
Proof.
  intros HA Hb Hj. unfold dstab_coefs. rewrite nth_map_ddot.
  apply dpowers_coef_sound; [exact HA | exact Hb | exact Hj | apply dones_sound].
Qed.

Theorem check_order_sound A b p tol : check_order A b p tol = true ->
  forall j, (1 <= j <= p)%nat ->
  Qabs (stab_coef (length A) (mofl A) (vofl b) j - 1 / qfact j) <= D2Q tol.
Proof.
  unfold check_order. intros [[HA%square_sq Hb%Nat.eqb_eq]%andb_prop Hc]%andb_prop [|j] Hj; [lia|].
  rewrite <- (dstab_coefs_sound A b p j HA) by lia.
  apply (coefs_ok_from_sound tol _ 1%nat Hc j). unfold dstab_coefs. rewrite map_length, dpowers_length. lia.
Qed.

Lemma dVt_00 AI AE n : dVt AI AE n 0 0 = dones n.
Proof. reflexivity. Qed.
Lemma dVt_0S AI AE n b : dVt AI AE n 0 (S b) = dmv AE (dVt AI AE n 0 b).
Proof. reflexivity. Qed.
Lemma dVt_S0 AI AE n a : dVt AI AE n (S a) 0 = dmv AI (dVt AI AE n a 0).
Proof. reflexivity. Qed.
Lemma dVt_SS AI AE n a b :
  dVt AI AE n (S a) (S b) = dvadd (dmv AI (dVt AI AE n a (S b))) (dmv AE (dVt AI AE n (S a) b)).
Proof. reflexivity. Qed.

Lemma dVt_sound AI AE n : sq n AI -> sq n AE ->
  forall a b, vrep n (dVt AI AE n a b) (Vtab n (mofl AI) (mofl AE) a b).
Proof.
  intros HI HE. induction a as [|a IHa]; induction b as [|b IHb].
  - apply vrep_dones.
  - rewrite dVt_0S. exact (vrep_dmv n AE _ _ HE (proj2 IHb)).
  - rewrite dVt_S0. exact (vrep_dmv n AI _ _ HI (proj2 (IHa 0%nat))).
  - rewrite dVt_SS.
    exact (vrep_dvadd n _ _ _ _ (vrep_dmv n AI _ _ HI (proj2 (IHa (S b)))) (vrep_dmv n AE _ _ HE (proj2 IHb))).
Qed.

Lemma dimex_coef_sound AI AE bI bE a b :
  let n := length AI in
  sq n AI -> sq n AE -> (length bI <= n)%nat -> (length bE <= n)%nat ->
  D2Q (dimex_coef AI AE bI bE a b) == imex_coef n (mofl AI) (mofl AE) (vofl bI) (vofl bE) a b.
Proof.
  intros n HI HE HbI HbE. unfold dimex_coef. fold n.
  pose proof (fun a b => proj2 (dVt_sound AI AE n HI HE a b)) as HV.
  destruct a as [|a], b as [|b]; cbn [imex_coef].
  - reflexivity.
  - apply ddot_sound; [exact HbE | apply HV].
  - apply ddot_sound; [exact HbI | apply HV].
  - rewrite fadd_eq, D2Q_add, (ddot_sound bI _ n _ HbI (HV a (S b))), (ddot_sound bE _ n _ HbE (HV (S a) b)).
    reflexivity.
Qed.

Lemma pairs_upto_In p a b : (a + b <= p)%nat -> In (a, b) (pairs_upto p).
Proof.
  intros H. unfold pairs_upto. apply in_flat_map. exists a. split; [apply in_seq; lia|].
  apply in_map_iff. exists b. split; [reflexivity | apply in_seq; lia].
Qed.

Lemma fsub_d0 : fsub d0 d0 = d0.
Proof. reflexivity. Qed.

Lemma dmsub_row A B i : length A = length B ->
  nth i (dmsub A B) [] = map (fun q => fsub (fst q) (snd q)) (combine (nth i A []) (nth i B [])).
Proof.
  intros H. unfold dmsub.
  change (@nil dy) with ((fun p : list dy * list dy => map (fun q => fsub (fst q) (snd q)) (combine (fst p) (snd p))) ([], [])) at 1.
  rewrite map_nth, combine_nth by exact H. reflexivity.
Qed.

Lemma dmsub_sound n A B : sq n A -> sq n B -> forall i j, mofl (dmsub A B) i j == mofl A i j - mofl B i j.
Proof.
  intros [LA RA] [LB RB] i j. unfold mofl. rewrite dmsub_row by congruence.
  change d0 with ((fun q => fsub (fst q) (snd q)) (d0, d0)) at 1.
  rewrite map_nth, combine_nth by (rewrite RA, RB; reflexivity). cbn [fst snd]. rewrite fsub_eq. apply D2Q_sub.
Qed.

Lemma dmsub_sq n A B : sq n A -> sq n B -> sq n (dmsub A B).
Proof.
  intros [LA RA] [LB RB]. split.
  - unfold dmsub. rewrite map_length, combine_length. lia.
  - intros i. rewrite dmsub_row, map_length, combine_length, RA, RB by congruence. apply Nat.min_id.
Qed.

Lemma dser_row_length QD QmD prev : forall cur, length (dser_row QD QmD prev cur) = length prev.
Proof. induction prev as [|pm prev IH]; intros cur; cbn [dser_row length]; [reflexivity|]. rewrite IH. reflexivity. Qed.

Lemma dser_row0_length n N : length (dser_row0 n N) = N.
Proof. destruct N; cbn [dser_row0 length]; [reflexivity|]. rewrite repeat_length. reflexivity. Qed.

Lemma dser_length Qm QDs : forall row, length (dser Qm QDs row) = S (length QDs).
Proof. induction QDs as [|QD QDs IH]; intros row; cbn [dser length]; [reflexivity|]. rewrite IH. reflexivity. Qed.

Lemma dser_row_lengths Qm QDs : forall row k, (k <= length QDs)%nat -> length (nth k (dser Qm QDs row) []) = length row.
Proof.
  induction QDs as [|QD QDs IH]; intros row [|k] Hk; cbn [dser nth]; try reflexivity; [cbn in Hk; lia|].
  rewrite IH by (cbn in Hk; lia). apply dser_row_length.
Qed.

Section Series.
  Variable n : nat.
  Variable QDf : nat -> mat.
  Variable Qm : list (list dy).
  Hypothesis HQ : sq n Qm.

  Notation T := (Tser n (mofl Qm) QDf).

  (* a list of vectors represents columns m0, m0+1, ... of row k of the series *)
  Fixpoint repr (k m0 : nat) (row : list (list dy)) : Prop :=
    match row with [] => True | v :: row' => vrep n v (T k m0) /\ repr k (S m0) row' end.

  Lemma repr_nth k row : forall m0 j, repr k m0 row -> (j < length row)%nat -> vrep n (nth j row []) (T k (m0 + j)).
  Proof.
    induction row as [|v row IH]; intros m0 j H Hj; [cbn in Hj; lia|]. destruct H as [Hv Hr].
    destruct j as [|j]; cbn [nth].
    - rewrite Nat.add_0_r. exact Hv.
    - rewrite Nat.add_succ_r. apply (IH (S m0)); [exact Hr | cbn in Hj; lia].
  Qed.

  Lemma dser_row_sound k QD : sq n QD -> (forall i j, QDf k i j == mofl QD i j) ->
    forall prev cur m0, vrep n cur (T (S k) m0) -> repr k m0 prev ->
    repr (S k) m0 (dser_row QD (dmsub Qm QD) prev cur).
  Proof.
    intros HD HDf. induction prev as [|pm prev IH]; intros cur m0 Hc Hp; [exact I|].
    destruct Hp as [Hp0 Hp]. cbn [dser_row repr]. split; [exact Hc|]. apply IH; [|exact Hp].
    (* the next column is  QD_k T_(k+1,m0) + (Q - QD_k) T_(k,m0) *)
    destruct (vrep_dvadd n _ _ _ _ (vrep_dmv n QD cur _ HD (proj2 Hc))
                (vrep_dmv n (dmsub Qm QD) pm _ (dmsub_sq n Qm QD HQ HD) (proj2 Hp0))) as [L E].
    split; [exact L|]. intros i Hi. rewrite (E i Hi), Tser_SS.
    rewrite (mv_ext_mat n (QDf k) (mofl QD) _ HDf i).
    rewrite (mv_ext_mat n (msub (mofl Qm) (QDf k)) (mofl (dmsub Qm QD)) _
               ltac:(intros a b; unfold msub; rewrite (dmsub_sound n Qm QD HQ HD), HDf; reflexivity) i).
    reflexivity.
  Qed.

  Lemma repr_zeros N : forall m0, repr 0 (S m0) (repeat (repeat d0 n) N).
  Proof.
    induction N as [|N IH]; intros m0; cbn [repeat repr]; [exact I|]. split; [|apply IH].
    split; [apply repeat_length|]. intros i _. unfold vofl. rewrite nth_repeat. reflexivity.
  Qed.

  Lemma dser_row0_sound N : repr 0 0 (dser_row0 n N).
  Proof. destruct N as [|N]; [exact I|]. split; [apply vrep_dones | apply repr_zeros]. Qed.

  (* the tables QDs are square and are the preconditioners of sweeps k0, k0+1, ... *)
  Definition precs (k0 : nat) (QDs : list (list (list dy))) : Prop :=
    forall s, (s < length QDs)%nat -> square n (nth s QDs []) = true /\ forall i j, QDf (k0 + s) i j == mofl (nth s QDs []) i j.

  Lemma dser_sound QDs : forall row k0, precs k0 QDs -> repr k0 0 row ->
    forall k, (k <= length QDs)%nat -> repr (k0 + k) 0 (nth k (dser Qm QDs row) []).
  Proof.
    induction QDs as [|QD QDs IH]; intros row k0 HD Hrow k Hk.
    - cbn in Hk. replace k with 0%nat by lia. rewrite Nat.add_0_r. exact Hrow.
    - destruct k as [|k]; cbn [dser nth]; [rewrite Nat.add_0_r; exact Hrow|].
      destruct (HD 0%nat) as [HD0 HD0f]; [cbn; lia|]. cbn [nth] in HD0, HD0f. rewrite Nat.add_0_r in HD0f.
      rewrite Nat.add_succ_r. apply (IH _ (S k0)); [| |cbn in Hk; lia].
      + intros s Hs. specialize (HD (S s)). rewrite Nat.add_succ_r in HD. apply HD. cbn; lia.
      + apply (dser_row_sound k0 QD (square_sq _ _ HD0) HD0f); [|exact Hrow]. rewrite (proj1 HQ). apply vrep_dones.
  Qed.

  Lemma dser0_sound QDs N : precs 0 QDs ->
    forall k j, (k <= length QDs)%nat -> (j < N)%nat ->
    vrep n (nth j (nth k (dser Qm QDs (dser_row0 n N)) []) []) (T k j).
  Proof.
    intros HD k j Hk Hj. apply (repr_nth k _ 0%nat j).
    - apply (dser_sound QDs _ 0%nat HD (dser_row0_sound N) k Hk).
    - rewrite dser_row_lengths, dser_row0_length; assumption.
  Qed.
End Series.

