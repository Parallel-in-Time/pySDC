(* Proofs about Model/SweepDAE.v (DAE-project sweepers).  K is an arbitrary commutative ring; the implicit
   function F = eval_f(u, u', t) is an ARBITRARY function; the solver is an arbitrary function subject
   only to the contract "the value returned for the system the sweeper hands over is a root of it".
   The node loops go through view_loop_spec / array_loop_spec of Proofs/SweepProofs.v. *)
From Coq Require Import List Arith Bool Lia Ring.
From PySDC Require Import Model.Sweep Model.SweepDAE Proofs.SweepProofs.
Import ListNotations.

Section DAEProofs.
  Context {K : Type} (kO kI : K) (kadd kmul ksub : K -> K -> K) (kopp : K -> K).
  Hypothesis Rth : ring_theory kO kI kadd kmul ksub kopp (@eq K).
  Add Ring KringDAE : Rth.
  Local Infix "+!" := kadd (at level 50, left associativity).
  Local Infix "*!" := kmul (at level 40, left associativity).
  Local Infix "-!" := ksub (at level 50, left associativity).
  Notation sumf := (sumf kO kadd).
  Notation sumf_scal_l := (sumf_scal_l kO kI kadd kmul ksub kopp Rth).
  Notation sumf_trunc := (sumf_trunc kO kI kadd kmul ksub kopp Rth).
  Notation sumf_last := (sumf_last kO kI kadd kmul ksub kopp Rth).
  Notation sumf_sub_coeff := (sumf_sub_coeff kO kI kadd kmul ksub kopp Rth).
  Notation accum_spec := (accum_spec kO kI kadd kmul ksub kopp Rth).
  Notation accum_sub_spec := (accum_sub_spec kO kI kadd kmul ksub kopp Rth).

  Section FullyImplicit.
  Context {X : Type}.
  Notation V := (X -> K).
  Variable M : nat.
  Variable dt t0 : K.
  Variable nodes : nat -> K.
  Variable Q QI : nat -> nat -> K.
  Variable evalF : V -> V -> K -> V.
  Variable solve : (V -> V) -> V -> K -> V -> K -> V.

  Notation tn := (tnode kadd kmul dt t0 nodes).
  Notation F_ := (dae_F kadd kmul evalF).
  Notation floop := (fi_loop kadd kmul dt t0 nodes QI evalF solve).
  Notation rkloop := (rkdae_loop kadd kmul dt t0 nodes QI evalF solve).
  Notation integ := (dae_integrate kO kadd kmul M dt Q).
  Notation set_nodes := (dae_set_nodes kO kadd kmul M dt Q).

  (* THE SOLVER CONTRACT of the DAE sweepers: P.solve_system(impl_sys, u_approx, factor, guess, t) returns a
     root of the function  impl_sys = du |-> F(u_approx + factor*du, du, t)  it is handed. *)
  Definition dae_solver_contract : Prop :=
    forall a ua g t x, F_ a ua t (solve (F_ a ua t) ua a g t) x = kO.

  (* the u_approx handed to the solver at node m, built from the derivatives fn of the nodes before m,
     and the derivative the solver returns for it *)
  Definition dae_uapprox (g : nat -> V) (fn : nat -> V) (m : nat) : V :=
    accum kadd (g m) 1 (m - 1) (fun j => vscale kmul (dt *! QI m j) (fn j)).
  Definition dae_node (g : nat -> V) (fn : nat -> V) (guess : V) (m : nat) : V :=
    solve (F_ (dt *! QI m m) (dae_uapprox g fn m) (tn m)) (dae_uapprox g fn m) (dt *! QI m m) guess (tn m).

  Lemma dae_node_below g (a b : nat -> V) guess m :
    (forall j, j < m -> a j = b j) -> dae_node g a guess m = dae_node g b guess m.
  Proof.
    intros H. assert (E : dae_uapprox g a m = dae_uapprox g b m).
    { apply (accum_ext kadd). intros j Hj. rewrite H by lia. reflexivity. }
    unfold dae_node. rewrite E. reflexivity.
  Qed.

  (* the node loops of FullyImplicitDAE.update_nodes (initial guess: the node's old derivative) and of
     RungeKuttaDAE.update_nodes (u_approx starts from u0; initial guess: the new derivative of the stage before) *)
  Lemma fi_loop_spec g n k f' :
    let r := floop g (seq k n) f' in
    (forall j, j < k \/ k + n <= j -> r j = f' j) /\
    (forall m, k <= m < k + n -> r m = dae_node g r (f' m) m).
  Proof.
    apply (array_loop_spec (floop g) (dae_node g) 0); [reflexivity | reflexivity | | lia].
    intros a b o m _. apply dae_node_below.
  Qed.

  Lemma rkdae_loop_spec (u0 : V) n k f' : 1 <= k ->
    let r := rkloop u0 (seq k n) f' in
    (forall j, j < k \/ k + n <= j -> r j = f' j) /\
    (forall m, k <= m < k + n -> r m = dae_node (fun _ => u0) r (r (m - 1)) m).
  Proof.
    apply (array_loop_spec (rkloop u0) (fun a _ m => dae_node (fun _ => u0) a (a (m - 1)) m) 1); [reflexivity | reflexivity |].
    intros a b _ m Hm H. rewrite (H (m - 1)) by lia. apply dae_node_below, H.
  Qed.

  (* "u[m] = u[0] + integrate()[m-1]" loop *)
  Lemma dae_set_nodes_spec (u fn : nat -> V) :
    let r := set_nodes u fn in
    (forall j, j = 0 \/ M < j -> r j = u j) /\
    (forall m, 1 <= m <= M -> r m = vadd kadd (u 0) (integ fn m)).
  Proof.
    destruct (array_loop_spec (fun ms u' => fold_left (fun u' m => upd u' m (vadd kadd (u' 0) (integ fn m))) ms u')
                (fun a _ m => vadd kadd (a 0) (integ fn m)) 1) with (n := M) (k := 1) (f := u) as [Sf Sn];
      [reflexivity | reflexivity | intros a b _ m Hm H; rewrite (H 0) by lia; reflexivity | lia |].
    split; [intros j Hj; apply Sf; lia|].
    intros m Hm. rewrite <- (Sf 0) by lia. apply Sn. lia.
  Qed.

  (* integrate(): dt * Q * U' *)
  Lemma dae_integrate_is_dtQF (f : nat -> V) m x :
    integ f m x = dt *! sumf (fun j => Q m j *! f j x) 1 M.
  Proof. unfold dae_integrate. rewrite accum_spec. unfold vzero, vscale. rewrite sumf_scal_l. ring. Qed.

  Lemma fi_gather_spec (u0 : V) (f : nat -> V) m x :
    fi_gather kO kadd kmul ksub M dt Q QI u0 f m x
    = u0 x +! dt *! sumf (fun j => (Q m j -! QI m j) *! f j x) 1 M.
  Proof.
    unfold fi_gather, vadd. rewrite accum_sub_spec, dae_integrate_is_dtQF. unfold vscale. rewrite sumf_scal_l, sumf_sub_coeff. ring.
  Qed.

  (* what the solver contract says of a node that holds the solver's answer: F vanishes at
     (g_m + dt sum_{j<=m} QI[m,j] U'_j, U'_m, t_m), the first argument given pointwise (no function extensionality) *)
  Lemma dae_node_root g (fn : nat -> V) guess m :
    dae_solver_contract -> 1 <= m -> fn m = dae_node g fn guess m ->
    exists ua : V,
      (forall x, ua x = g m x +! dt *! sumf (fun j => QI m j *! fn j x) 1 m) /\
      forall x, evalF ua (fn m) (tn m) x = kO.
  Proof.
    intros Hc Hm E. exists (vadd kadd (dae_uapprox g fn m) (vscale kmul (dt *! QI m m) (fn m))). split; intros x.
    - unfold vadd, dae_uapprox. rewrite accum_spec. unfold vscale. rewrite sumf_scal_l, (sumf_last _ m Hm). ring.
    - pose proof (Hc (dt *! QI m m) (dae_uapprox g fn m) guess (tn m) x) as C.
      unfold dae_node in E. rewrite <- E in C. exact C.
  Qed.

  (* FullyImplicitDAE.update_nodes
     For every M, dt, Q, QI, node data and ANY implicit function F, under the solver contract:
       (frame)    u[0], f[0] and everything beyond node M are untouched;
       (nodes)    u_m = u0 + dt sum_j Q[m,j] U'new_j                       (as the code computes them)
       (sweep)    F( u0 + dt sum_j (Q-QI)[m,j] U'old_j + dt sum_{j<=m} QI[m,j] U'new_j , U'new_m , t_m ) = 0
     where the first argument is given pointwise (no function extensionality is assumed). *)
  Theorem fi_sweep_form (u f : nat -> V) :
    dae_solver_contract ->
    let r := fi_update kO kadd kmul ksub M dt t0 nodes Q QI evalF solve u f in
    let un := fst r in let fn := snd r in
    (forall j, j = 0 \/ M < j -> un j = u j /\ fn j = f j) /\
    forall m, 1 <= m <= M ->
      (forall x, un m x = u 0 x +! dt *! sumf (fun j => Q m j *! fn j x) 1 M) /\
      exists ua : V,
        (forall x, ua x = u 0 x +! dt *! sumf (fun j => (Q m j -! QI m j) *! f j x) 1 M
                              +! dt *! sumf (fun j => QI m j *! fn j x) 1 m) /\
        forall x, evalF ua (fn m) (tn m) x = kO.
  Proof.
    intros Hc. cbv zeta. unfold fi_update. cbn [fst snd].
    set (g := fi_gather kO kadd kmul ksub M dt Q QI (u 0) f).
    destruct (fi_loop_spec g M 1 f) as [Sf Sn]. set (fn := floop g (seq 1 M) f) in *.
    destruct (dae_set_nodes_spec u fn) as [Tf Tn].
    split.
    - intros j Hj. split; [apply Tf | apply Sf]; lia.
    - intros m Hm. split.
      + intros x. rewrite (Tn m Hm). unfold vadd. rewrite dae_integrate_is_dtQF. reflexivity.
      + destruct (dae_node_root g fn (f m) m Hc (proj1 Hm) (Sn m ltac:(lia))) as [ua [Hua Hroot]].
        exists ua. split; [|exact Hroot]. intros x. rewrite Hua. unfold g. rewrite fi_gather_spec. reflexivity.
  Qed.

  (* compute_residual evaluates F at the node's own value, derivative and time; if the problem's F respects
     pointwise equality of its first argument (every function definable without intensional tricks does; no
     funext is assumed) the residual vector after a sweep is F at u_m = u0 + dt sum_j Q[m,j] U'new_j, and it
     VANISHES at every node whose u_approx was built from derivatives the sweep did not change (fixed point)
     provided QI is lower triangular: the sweep's fixed points are roots of the collocation problem. *)
  Definition evalF_ext : Prop :=
    forall (a b du : V) t, (forall x, a x = b x) -> forall x, evalF a du t x = evalF b du t x.

  Theorem fi_fixed_point_residual_zero (u f : nat -> V) :
    dae_solver_contract -> evalF_ext ->
    lower_triangular kO QI ->
    let r := fi_update kO kadd kmul ksub M dt t0 nodes Q QI evalF solve u f in
    (forall j x, 1 <= j <= M -> snd r j x = f j x) ->
    forall m, 1 <= m <= M -> forall x,
      dae_residual_vec kadd kmul dt t0 nodes evalF (fst r) (snd r) m x = kO.
  Proof.
    intros Hc He Hlt r Hfix m Hm x.
    destruct (fi_sweep_form u f Hc) as [_ H]. fold r in H.
    destruct (H m Hm) as [Hu [ua [Hua Hroot]]].
    unfold dae_residual_vec. rewrite (He (fst r m) ua (snd r m) (tn m)); [apply Hroot|].
    intros y. rewrite Hu, Hua.
    rewrite (sumf_ext kO kadd (fun j => (Q m j -! QI m j) *! f j y) (fun j => (Q m j -! QI m j) *! snd r j y) 1 M)
      by (intros j Hj; rewrite Hfix by lia; reflexivity).
    rewrite sumf_sub_coeff, (sumf_trunc (QI m) (fun j => snd r j y) 1 m M) by (try (intros; apply Hlt); lia). ring.
  Qed.

  (* FullyImplicitDAE.predict: u[0] kept, all derivatives zero, nodes = u0 ('spread') or 0 ('zero') *)
  Theorem fi_predict_form spread (u f : nat -> V) :
    let r := fi_predict kO M spread u f in
    fst r 0 = u 0 /\ snd r 0 = vzero kO /\
    forall m, 1 <= m <= M -> fst r m = (if spread then u 0 else vzero kO) /\ snd r m = vzero kO.
  Proof.
    intros r. unfold fi_predict in r.
    set (step := fun (st : (nat -> V) * (nat -> V)) m =>
                   (upd (fst st) m (if spread then fst st 0 else vzero kO), upd (snd st) m (vzero kO))) in r.
    destruct (view_loop_spec (fun (st : (nat -> V) * (nat -> V)) j => (fst st j, snd st j)) step (fun ms st => fold_left step ms st)
                (fun st _ _ => (if spread then fst st 0 else vzero kO, vzero kO)) 1 (fun _ => eq_refl) (fun _ _ _ => eq_refl))
      with (n := M) (k := 1) (s := (u, upd f 0 (vzero kO))) as [Gf Gn].
    - intros s m j _ H. cbn [step fst snd]. rewrite !upd_other by exact H. reflexivity.
    - intros s m _. cbn [step fst snd]. rewrite !upd_same. reflexivity.
    - intros s s' _ m Hm H. injection (H 0 Hm) as -> _. reflexivity.
    - lia.
    - fold r in Gf, Gn. destruct (proj1 (pair_equal_spec _ _ _ _) (Gf 0 ltac:(lia))) as [A B].
      cbn [fst snd] in A, B. rewrite upd_same in B.
      split; [exact A|]. split; [exact B|]. intros m Hm.
      destruct (proj1 (pair_equal_spec _ _ _ _) (Gn m ltac:(lia))) as [C D]. cbn [fst] in C. rewrite A in C.
      split; assumption.
  Qed.

  (* FullyImplicitDAE.compute_end_point: defined exactly when right_is_node and not do_coll_update, and then a copy of
     the last node (never the quadrature branch of generic_implicit) *)
  Theorem dae_end_point_form weights rin dcu (u f : nat -> V) tau :
    dae_end_point kO kadd kmul M dt weights rin dcu u f tau
    = if rin && negb dcu then Some (u M) else None.
  Proof.
    unfold dae_end_point, end_point. destruct rin, dcu; reflexivity.
  Qed.

  (* RungeKuttaDAE.update_nodes
     stage form of a DIRK method applied to F(u, u', t) = 0, for every number of stages, Butcher matrix A = QI (padded),
     Q (= A in the shipped classes), data, F:
        F( u0 + dt sum_{j<=m} A[m,j] K_j , K_m , t_m ) = 0 ,    u_m = u0 + dt sum_j Q[m,j] K_j *)
  Theorem rkdae_stage_form (u f : nat -> V) :
    dae_solver_contract ->
    let r := rkdae_update kO kadd kmul M dt t0 nodes Q QI evalF solve u f in
    let un := fst r in let kn := snd r in
    (forall j, j = 0 \/ M < j -> un j = u j /\ kn j = f j) /\
    forall m, 1 <= m <= M ->
      (forall x, un m x = u 0 x +! dt *! sumf (fun j => Q m j *! kn j x) 1 M) /\
      exists ua : V,
        (forall x, ua x = u 0 x +! dt *! sumf (fun j => QI m j *! kn j x) 1 m) /\
        forall x, evalF ua (kn m) (tn m) x = kO.
  Proof.
    intros Hc. cbv zeta. unfold rkdae_update. cbn [fst snd].
    destruct (rkdae_loop_spec (u 0) M 1 f (le_n 1)) as [Sf Sn]. set (kn := rkloop (u 0) (seq 1 M) f) in *.
    destruct (dae_set_nodes_spec u kn) as [Tf Tn].
    split.
    - intros j Hj. split; [apply Tf | apply Sf]; lia.
    - intros m Hm. split.
      + intros x. rewrite (Tn m Hm). unfold vadd. rewrite dae_integrate_is_dtQF. reflexivity.
      + exact (dae_node_root (fun _ => u 0) kn (kn (m - 1)) m Hc (proj1 Hm) (Sn m ltac:(lia))).
  Qed.
  End FullyImplicit.

  Section SemiExplicit.
  Context {X Y : Type}.
  Notation mesh := ((X -> K) * (Y -> K))%type.
  Variable M : nat.
  Variable dt t0 : K.
  Variable nodes : nat -> K.
  Variable Q QI : nat -> nat -> K.
  Variable evalF : mesh -> mesh -> K -> mesh.
  Variable solve : (mesh -> mesh) -> mesh -> K -> mesh -> K -> mesh.

  Notation tn := (tnode kadd kmul dt t0 nodes).
  Notation SF := (si_F kadd kmul evalF).
  Notation sloop := (si_loop kadd kmul dt t0 nodes QI evalF solve).
  Notation sinteg := (si_integrate kO kadd kmul M dt Q).

  (* solver contract: both components of the system handed over vanish at the returned (U', z) *)
  Definition si_solver_contract : Prop :=
    forall a ua g t,
      (forall x, fst (SF a ua t (solve (SF a ua t) ua a g t)) x = kO) /\
      (forall y, snd (SF a ua t (solve (SF a ua t) ua a g t)) y = kO).

  Definition si_uapprox (g : nat -> mesh) (fn : nat -> mesh) (m : nat) : mesh :=
    (accum kadd (fst (g m)) 1 (m - 1) (fun j => vscale kmul (dt *! QI m j) (fst (fn j))), snd (g m)).
  Definition si_node (g : nat -> mesh) (fn : nat -> mesh) (guess : mesh) (m : nat) : mesh :=
    solve (SF (dt *! QI m m) (si_uapprox g fn m) (tn m)) (si_uapprox g fn m) (dt *! QI m m) guess (tn m).

  (* the node loop: the solver's answer w for node m (guess: old U'.diff and old z) goes to f[m].diff and u[m].alg *)
  Lemma si_loop_spec g n k (u' f' : nat -> mesh) :
    let r := sloop g (seq k n) (u', f') in
    (forall j, j < k \/ k + n <= j -> fst r j = u' j /\ snd r j = f' j) /\
    (forall m, k <= m < k + n ->
       let w := si_node g (snd r) (fst (f' m), snd (u' m)) m in
       fst r m = (fst (u' m), snd w) /\ snd r m = (fst w, snd (f' m))).
  Proof.
    destruct (view_loop_spec (fun (s : (nat -> mesh) * (nat -> mesh)) j => (fst s j, snd s j)) (fun s m => sloop g [m] s) (sloop g)
                (fun s o m => let w := si_node g (snd s) (fst (snd o), snd (fst o)) m in
                              ((fst (fst o), snd w), (fst w, snd (snd o)))) 0)
      with (n := n) (k := k) (s := (u', f')) as [Sf Sn].
    - reflexivity.
    - intros m ms [u1 f1]. reflexivity.
    - intros [u1 f1] m j _ H. cbn [si_loop fst snd]. rewrite !upd_other by exact H. reflexivity.
    - intros [u1 f1] m _. cbn [si_loop fst snd]. rewrite !upd_same. reflexivity.
    - intros s s' o m _ H. cbv zeta.
      assert (E : si_uapprox g (snd s) m = si_uapprox g (snd s') m).
      { unfold si_uapprox. f_equal. apply (accum_ext kadd). intros j Hj. injection (H j ltac:(lia)) as _ ->. reflexivity. }
      unfold si_node. rewrite E. reflexivity.
    - lia.
    - split; intros m Hm; apply pair_equal_spec; [apply Sf | apply Sn]; exact Hm.
  Qed.

  Lemma si_set_nodes_spec (u fn : nat -> mesh) :
    let r := si_set_nodes kO kadd kmul M dt Q u fn in
    (forall j, j = 0 \/ M < j -> r j = u j) /\
    (forall m, 1 <= m <= M -> r m = (vadd kadd (fst (u 0)) (fst (sinteg fn m)), snd (u m))).
  Proof.
    destruct (array_loop_spec
                (fun ms u' => fold_left (fun u' m => upd u' m (vadd kadd (fst (u' 0)) (fst (sinteg fn m)), snd (u' m))) ms u')
                (fun a (o : mesh) m => (vadd kadd (fst (a 0)) (fst (sinteg fn m)), snd o)) 1) with (n := M) (k := 1) (f := u) as [Sf Sn];
      [reflexivity | reflexivity | intros a b o m Hm H; rewrite (H 0) by lia; reflexivity | lia |].
    split; [intros j Hj; apply Sf; lia|].
    intros m Hm. rewrite <- (Sf 0) by lia. apply Sn. lia.
  Qed.

  (* SemiImplicitDAE.integrate: differential part dt*Q*U'.diff, algebraic part 0 *)
  Lemma si_integrate_form (f : nat -> mesh) m :
    (forall x, fst (sinteg f m) x = dt *! sumf (fun j => Q m j *! fst (f j) x) 1 M) /\
    (forall y, snd (sinteg f m) y = kO).
  Proof.
    unfold si_integrate. cbn [fst snd]. split; [|reflexivity].
    intros x. rewrite accum_spec. unfold vzero, vscale. rewrite sumf_scal_l. ring.
  Qed.

  (* SemiImplicitDAE.update_nodes
     (frame)   node 0 and everything beyond M untouched; the algebraic part of level.f and (until the final
               node update) the differential part of level.u are never written;
     (nodes)   u_m.diff = u0.diff + dt sum_j Q[m,j] U'new_j.diff ;   u_m.alg = z_m (solver output)
     (sweep)   F( (u0.diff + dt sum_j Q[m,j] U'old_j.diff - dt sum_{j<=m} QI[m,j] U'old_j.diff
                          + dt sum_{j<=m} QI[m,j] U'new_j.diff ,  z_m) , (U'new_m.diff, z_m) , t_m ) = 0
     Note the code subtracts QI[m,j] only for j <= m (fullyImplicitDAE: j <= M); see si_sweep_form_lower. *)
  Theorem si_sweep_form (u f : nat -> mesh) :
    si_solver_contract ->
    let r := si_update kO kadd kmul ksub M dt t0 nodes Q QI evalF solve u f in
    let un := fst r in let fn := snd r in
    (forall j, j = 0 \/ M < j -> un j = u j /\ fn j = f j) /\
    forall m, 1 <= m <= M ->
      snd (fn m) = snd (f m) /\
      (forall x, fst (un m) x = fst (u 0) x +! dt *! sumf (fun j => Q m j *! fst (fn j) x) 1 M) /\
      exists ud : X -> K,
        (forall x, ud x = fst (u 0) x +! dt *! sumf (fun j => Q m j *! fst (f j) x) 1 M
                              -! dt *! sumf (fun j => QI m j *! fst (f j) x) 1 m
                              +! dt *! sumf (fun j => QI m j *! fst (fn j) x) 1 m) /\
        (forall x, fst (evalF (ud, snd (un m)) (fst (fn m), snd (un m)) (tn m)) x = kO) /\
        (forall y, snd (evalF (ud, snd (un m)) (fst (fn m), snd (un m)) (tn m)) y = kO).
  Proof.
    intros Hc. cbv zeta. unfold si_update.
    set (g := si_gather kO kadd kmul ksub M dt Q QI (u 0) f).
    destruct (si_loop_spec g M 1 u f) as [Sf Sn].
    destruct (sloop g (seq 1 M) (u, f)) as [u1 f1]. cbn [fst snd] in *.
    destruct (si_set_nodes_spec u1 f1) as [Tf Tn].
    split.
    - intros j Hj. destruct (Sf j ltac:(lia)) as [A B]. rewrite (Tf j Hj). split; assumption.
    - intros m Hm. destruct (Sn m ltac:(lia)) as [A B].
      set (w := si_node g f1 (fst (f m), snd (u m)) m) in *.
      rewrite (Tn m Hm), (proj1 (Sf 0 ltac:(lia))), A, B. cbn [fst snd]. split; [reflexivity|]. split.
      + intros x. unfold vadd. rewrite (proj1 (si_integrate_form f1 m)). reflexivity.
      + exists (vadd kadd (fst (si_uapprox g f1 m)) (vscale kmul (dt *! QI m m) (fst w))). split.
        * intros x. unfold vadd, vscale, si_uapprox, g, si_gather. cbn [fst snd].
          rewrite accum_spec. unfold vadd. rewrite accum_sub_spec. unfold vscale.
          rewrite (proj1 (si_integrate_form f m)), !sumf_scal_l.
          rewrite (sumf_last (fun j => QI m j *! fst (f1 j) x) m (proj1 Hm)), B.
          cbn [fst]. ring.
        * destruct (Hc (dt *! QI m m) (si_uapprox g f1 m) (fst (f m), snd (u m)) (tn m)) as [C1 C2].
          rewrite <- (surjective_pairing w). split; assumption.
  Qed.

  (* with a lower triangular QI (what get_Qdelta_implicit asserts) the known part is u0 + dt (Q - QI) U'old *)
  Corollary si_sweep_form_lower (u f : nat -> mesh) :
    si_solver_contract ->
    lower_triangular kO QI ->
    let r := si_update kO kadd kmul ksub M dt t0 nodes Q QI evalF solve u f in
    let un := fst r in let fn := snd r in
    forall m, 1 <= m <= M ->
      exists ud : X -> K,
        (forall x, ud x = fst (u 0) x +! dt *! sumf (fun j => (Q m j -! QI m j) *! fst (f j) x) 1 M
                              +! dt *! sumf (fun j => QI m j *! fst (fn j) x) 1 m) /\
        (forall x, fst (evalF (ud, snd (un m)) (fst (fn m), snd (un m)) (tn m)) x = kO) /\
        (forall y, snd (evalF (ud, snd (un m)) (fst (fn m), snd (un m)) (tn m)) y = kO).
  Proof.
    intros Hc Hlt r un fn m Hm.
    destruct (si_sweep_form u f Hc) as [_ H]. fold r in H. cbv zeta in H. fold un fn in H.
    destruct (H m Hm) as [_ [_ [ud [Hud Hroot]]]].
    exists ud. split; [|exact Hroot].
    intros x. rewrite Hud, sumf_sub_coeff.
    rewrite (sumf_trunc (QI m) (fun j => fst (f j) x) 1 m M) by (try (intros; apply Hlt); lia). ring.
  Qed.

  (* compute_residual after the sweep (inherited code: F at (u_m, level.f[m], t_m), whose algebraic part of level.f is
     never written by this sweeper).  For problems of semi-explicit form — F does not look at the algebraic part of its
     derivative argument and respects pointwise equality (no funext assumed) — the residual vanishes at a fixed point of
     the sweep (differential derivatives unchanged) when QI is lower triangular. *)
  Definition si_evalF_semi_explicit : Prop :=
    forall (a b da db : mesh) t,
      (forall x, fst a x = fst b x) -> (forall y, snd a y = snd b y) -> (forall x, fst da x = fst db x) ->
      (forall x, fst (evalF a da t) x = fst (evalF b db t) x) /\ (forall y, snd (evalF a da t) y = snd (evalF b db t) y).

  Theorem si_fixed_point_residual_zero (u f : nat -> mesh) :
    si_solver_contract -> si_evalF_semi_explicit ->
    lower_triangular kO QI ->
    let r := si_update kO kadd kmul ksub M dt t0 nodes Q QI evalF solve u f in
    (forall j x, 1 <= j <= M -> fst (snd r j) x = fst (f j) x) ->
    forall m, 1 <= m <= M ->
      (forall x, fst (si_residual_vec kadd kmul dt t0 nodes evalF (fst r) (snd r) m) x = kO) /\
      (forall y, snd (si_residual_vec kadd kmul dt t0 nodes evalF (fst r) (snd r) m) y = kO).
  Proof.
    intros Hc He Hlt r Hfix m Hm.
    destruct (si_sweep_form u f Hc) as [_ H]. fold r in H. cbv zeta in H.
    destruct (H m Hm) as [_ [Hu _]].
    destruct (si_sweep_form_lower u f Hc Hlt m Hm) as [ud [Hud [R1 R2]]]. fold r in Hud, R1, R2.
    unfold si_residual_vec.
    assert (Eud : forall x, fst (fst r m) x = ud x).
    { intros x. rewrite Hu, Hud.
      rewrite (sumf_ext kO kadd (fun j => (Q m j -! QI m j) *! fst (f j) x) (fun j => (Q m j -! QI m j) *! fst (snd r j) x) 1 M)
        by (intros j Hj; rewrite Hfix by lia; reflexivity).
      rewrite sumf_sub_coeff.
      rewrite (sumf_trunc (QI m) (fun j => fst (snd r j) x) 1 m M) by (try (intros; apply Hlt); lia). ring. }
    destruct (He (fst r m) (ud, snd (fst r m)) (snd r m) (fst (snd r m), snd (fst r m)) (tn m)) as [E1 E2];
      [exact Eud | reflexivity | reflexivity |].
    split; [intros x; rewrite E1; apply R1 | intros y; rewrite E2; apply R2].
  Qed.
  End SemiExplicit.
End DAEProofs.

(* Non-vacuity.
   The hypotheses are satisfiable: Qc is a commutative ring (Qcrt) and there are problems + solvers meeting the
   contracts for EVERY factor / u_approx / guess / time:
     fully implicit:  F(u, u', t) = u' - t            (u' = t),        solver returns the constant t;
     semi-implicit:   F((u, z), (u', z), t) = (u' - z, z - t)  (u' = z, 0 = z - t), solver returns (t, t).
   (The dense linear DAEs of the correspondence harness satisfy the contract wherever their Jacobian
   factor*A + B is nonsingular — checked per case by the oracle, not claimed for all factors.) *)
From Coq Require Import QArith Qcanon.
Local Open Scope Qc_scope.

Example dae_solver_contract_instance :
  dae_solver_contract (X := unit) (Q2Qc 0) Qcplus Qcmult (fun _ du t x => du x - t) (fun _ _ _ _ t _ => t).
Proof. unfold dae_solver_contract, dae_F. intros. ring. Qed.

Example si_solver_contract_instance :
  si_solver_contract (X := unit) (Y := unit) (Q2Qc 0) Qcplus Qcmult
    (fun u du t => (fun x => fst du x - snd u x, fun y => snd u y - t))
    (fun _ _ _ _ t => (fun _ => t, fun _ => t)).
Proof. unfold si_solver_contract, si_F. intros. cbn [fst snd]. split; intros; ring. Qed.

Example si_evalF_semi_explicit_instance :
  si_evalF_semi_explicit (X := unit) (Y := unit) (K := Qc)
    (fun u du t => (fun x => fst du x - snd u x, fun y => snd u y - t)).
Proof.
  unfold si_evalF_semi_explicit. intros a b da db t Ha Hb Hd. cbn [fst snd].
  split; intros z; [rewrite (Hd z), (Hb z) | rewrite (Hb z)]; reflexivity.
Qed.

Example dae_evalF_ext_instance : evalF_ext (X := unit) (K := Qc) (fun _ du t x => du x - t).
Proof. unfold evalF_ext. intros. reflexivity. Qed.
