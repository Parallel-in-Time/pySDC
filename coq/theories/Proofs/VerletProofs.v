(* C02 — proofs about Model/Verlet.v (verlet sweeper, second-order problems): block form of update_nodes for positions and
   velocities, compute_end_point.  K is an arbitrary commutative ring, the acceleration an arbitrary function. *)
From Coq Require Import List Arith Bool Lia Ring.
From PySDC Require Import Model.Sweep Model.Verlet Proofs.SweepProofs.
Import ListNotations.

Section VerletProofs.
  Context {K : Type} (kO kI : K) (kadd kmul ksub : K -> K -> K) (kopp : K -> K).
  Hypothesis Rth : ring_theory kO kI kadd kmul ksub kopp (@eq K).
  Add Ring KringV : Rth.
  Context {X : Type}.
  Notation V := (X -> K).
  Local Infix "+!" := kadd (at level 50, left associativity).
  Local Infix "*!" := kmul (at level 40, left associativity).
  Local Infix "-!" := ksub (at level 50, left associativity).
  Variable M : nat.
  Variable dt t0 : K.
  Variable nodes : nat -> K.
  Variable Q QQ Qx QT : nat -> nat -> K.
  Variable feval : K -> V -> V -> V.
  Notation tn := (tnode kadd kmul dt t0 nodes).
  Notation sumf := (sumf kO kadd).
  Notation tauval := (tauval kO).
  Notation vloop := (verlet_loop kadd kmul dt t0 nodes Qx QT feval).
  Notation accum_spec := (accum_spec kO kI kadd kmul ksub kopp Rth).
  Notation accum_sub_spec := (accum_sub_spec kO kI kadd kmul ksub kopp Rth).
  Notation tauval_spec := (tauval_spec kO kI kadd kmul ksub kopp Rth).
  Notation sumf_add := (sumf_add kO kI kadd kmul ksub kopp Rth).
  Notation sumf_scal := (sumf_scal kO kI kadd kmul ksub kopp Rth).
  Notation sumf_scal_l := (sumf_scal_l kO kI kadd kmul ksub kopp Rth).
  Notation sumf_sub_coeff := (sumf_sub_coeff kO kI kadd kmul ksub kopp Rth).
  Notation sumf_last := (sumf_last kO kI kadd kmul ksub kopp Rth).
  Notation sumf_scal_r := (sumf_scal_r kO kI kadd kmul ksub kopp Rth).
  Notation pos_quad_spec := (pos_quad_spec kO kI kadd kmul ksub kopp Rth).
  Notation vel_quad_spec := (vel_quad_spec kO kI kadd kmul ksub kopp Rth).
  Notation sumf_swap := (sumf_swap kO kI kadd kmul ksub kopp Rth).

  Definition v_pos (gp : nat -> V) (fn : nat -> V) (m : nat) : V :=
    accum kadd (gp m) 1 (m - 1) (fun j => vscale kmul (dt *! (dt *! Qx m j)) (fn j)).
  Definition v_vel0 (gv : nat -> V) (fn : nat -> V) (m : nat) : V :=
    accum kadd (gv m) 1 (m - 1) (fun j => vscale kmul (dt *! QT m j) (fn j)).

  (* node m as view_loop_spec sees it, and what the loop writes there from the accelerations below m *)
  Definition vview (s : (nat -> V) * (nat -> V) * (nat -> V)) (j : nat) : V * V * V := (fst (fst s) j, snd (fst s) j, snd s j).
  Definition vnode (gp gv : nat -> V) (s : (nat -> V) * (nat -> V) * (nat -> V)) (o : V * V * V) (m : nat) : V * V * V :=
    let fm := feval (tn m) (v_pos gp (snd s) m) (v_vel0 gv (snd s) m) in
    (v_pos gp (snd s) m, vadd kadd (v_vel0 gv (snd s) m) (vscale kmul (dt *! QT m m) fm), fm).

  (* the node loop: every processed node holds vnode of the FINAL accelerations below it *)
  Lemma verlet_loop_spec (gp gv : nat -> V) n k (p' v' f' : nat -> V) :
    let r := vloop gp gv (seq k n) (p', v', f') in
    (forall j, j < k \/ k + n <= j -> fst (fst r) j = p' j /\ snd (fst r) j = v' j /\ snd r j = f' j) /\
    (forall m, k <= m < k + n ->
       fst (fst r) m = v_pos gp (snd r) m /\
       snd r m = feval (tn m) (fst (fst r) m) (v_vel0 gv (snd r) m) /\
       snd (fst r) m = vadd kadd (v_vel0 gv (snd r) m) (vscale kmul (dt *! QT m m) (snd r m))).
  Proof.
    destruct (view_loop_spec vview (fun s m => vloop gp gv [m] s) (vloop gp gv) (vnode gp gv) 0)
      with (n := n) (k := k) (s := (p', v', f')) as [Sf Sn].
    - reflexivity.
    - intros m ms [[p1 v1] f1]. reflexivity.
    - intros [[p1 v1] f1] m j _ H. unfold vview. cbn [verlet_loop fst snd]. rewrite !upd_other by exact H. reflexivity.
    - intros [[p1 v1] f1] m _. unfold vview. cbn [verlet_loop fst snd]. rewrite !upd_same. reflexivity.
    - intros s s' o m _ H.
      assert (Hf : forall j, 1 <= j < 1 + (m - 1) -> snd s j = snd s' j) by (intros j Hj; exact (f_equal snd (H j ltac:(lia)))).
      assert (Ep : v_pos gp (snd s) m = v_pos gp (snd s') m) by (apply (accum_ext kadd); intros j Hj; rewrite (Hf j Hj); reflexivity).
      assert (Ev : v_vel0 gv (snd s) m = v_vel0 gv (snd s') m) by (apply (accum_ext kadd); intros j Hj; rewrite (Hf j Hj); reflexivity).
      unfold vnode. rewrite Ep, Ev. reflexivity.
    - apply Nat.le_0_l.
    - split.
      + intros j Hj. injection (Sf j Hj) as Ep Ev Ef. auto.
      + intros m Hm. injection (Sn m Hm) as Ep Ev Ef. rewrite Ev, Ef, Ep. auto.
  Qed.

  (* verlet.update_nodes: position / velocity block form, for every M, matrices, data, tau, any acceleration *)
  Theorem verlet_block_form (p v f : nat -> V) taup tauv :
    let r := verlet_update kO kadd kmul ksub M dt t0 nodes Q QQ Qx QT feval p v f taup tauv in
    let pn := fst (fst r) in let vn := snd (fst r) in let fn := snd r in
    (forall j, j = 0 \/ M < j -> pn j = p j /\ vn j = v j /\ fn j = f j) /\
    forall m, 1 <= m <= M -> forall x,
      pn m x -! dt *! dt *! sumf (fun j => Qx m j *! fn j x) 1 (m - 1)
      = p 0 x +! dt *! sumf (fun j => Q m j) 1 M *! v 0 x
              +! dt *! dt *! sumf (fun j => (QQ m j -! Qx m j) *! f j x) 1 M +! tauval taup m x
      /\
      vn m x -! dt *! sumf (fun j => QT m j *! fn j x) 1 m
      = v 0 x +! dt *! sumf (fun j => (Q m j -! QT m j) *! f j x) 1 M +! tauval tauv m x.
  Proof.
    intros r pn vn fn. unfold verlet_update in r.
    destruct (verlet_loop_spec (vgather_pos kO kadd kmul ksub M dt Q QQ Qx (p 0) (v 0) f taup)
                (vgather_vel kO kadd kmul ksub M dt Q QT (v 0) f tauv) M 1 p v f) as [Sf Sn].
    fold r in Sf, Sn. split; [intros j Hj; apply Sf; lia|].
    intros m Hm x. destruct (Sn m ltac:(lia)) as [Ep [_ Ev]]. fold pn in Ep. fold fn in Ep, Ev. fold vn in Ev.
    split.
    - rewrite Ep. cbv beta zeta delta [v_pos vgather_pos]. rewrite accum_spec, tauval_spec. unfold vadd at 1.
      rewrite accum_sub_spec. unfold vint_pos. rewrite (pos_quad_spec _ (QQ m) (fun j => Q m j)). unfold vzero, vscale.
      rewrite !sumf_scal_l, sumf_sub_coeff. ring.
    - rewrite Ev. cbv beta zeta delta [v_vel0 vgather_vel]. unfold vadd at 1. rewrite accum_spec, tauval_spec. unfold vadd.
      rewrite accum_sub_spec. unfold vint_vel. rewrite vel_quad_spec. unfold vzero, vscale.
      rewrite !sumf_scal_l, sumf_sub_coeff, (sumf_last (fun j => QT m j *! fn j x) m) by lia. ring.
  Qed.

  Variable weights qQ : nat -> K.

  (* verlet.compute_end_point: a copy of the last node exactly when configured so; otherwise the full Picard
     evaluation  x0 + dt (sum w) v0 + dt^2 sum_m qQ_m f_m (+ tau),  v0 + dt sum_m w_m f_m (+ tau) *)
  Theorem verlet_end_point_form rin dcu (p v f : nat -> V) taup tauv :
    let e := verlet_end_point kadd kmul M dt weights qQ rin dcu p v f taup tauv in
    (rin && negb dcu = true -> e = (p M, v M)) /\
    (rin && negb dcu = false -> forall x,
       fst e x = p 0 x +! dt *! sumf weights 1 M *! v 0 x +! dt *! dt *! sumf (fun m => qQ m *! f m x) 1 M +! tauval taup M x /\
       snd e x = v 0 x +! dt *! sumf (fun m => weights m *! f m x) 1 M +! tauval tauv M x).
  Proof.
    intros e. unfold e, verlet_end_point. split; intros Hb; rewrite Hb; [reflexivity|].
    intros x. cbn [fst snd]. rewrite !tauval_spec, (pos_quad_spec _ qQ weights), vel_quad_spec. split; ring.
  Qed.

  (* with qQ = w^T Q (what verlet.__init__ configures; validated on the real table every run) the position end value is the
     second-order form of  u0 + dt sum_n w_n F_n :  x0 + dt sum_n w_n (v0 + dt sum_j Q_nj f_j) *)
  Corollary verlet_end_point_second_order_form dcu rin (p v f : nat -> V) taup tauv :
    (forall m, qQ m = sumf (fun n => weights n *! Q n m) 1 M) ->
    rin && negb dcu = false ->
    let e := verlet_end_point kadd kmul M dt weights qQ rin dcu p v f taup tauv in
    forall x, fst e x = p 0 x +! dt *! sumf (fun n => weights n *! (v 0 x +! dt *! sumf (fun j => Q n j *! f j x) 1 M)) 1 M
                        +! tauval taup M x.
  Proof.
    intros HqQ Hb e x. destruct (verlet_end_point_form rin dcu p v f taup tauv) as [_ H]. fold e in H.
    destruct (H Hb x) as [-> _].
    (* sum_m qQ_m f_m = sum_n w_n sum_j Q_nj f_j: exchange the two sums *)
    rewrite (sumf_ext kO kadd (fun m => qQ m *! f m x) (fun j => sumf (fun n => weights n *! (Q n j *! f j x)) 1 M) 1 M)
      by (intros j _; rewrite HqQ, <- sumf_scal_r; apply sumf_ext; intros; ring).
    rewrite <- (sumf_swap (fun n j => weights n *! (Q n j *! f j x))).
    rewrite (sumf_ext kO kadd (fun n => sumf (fun j => weights n *! (Q n j *! f j x)) 1 M)
               (fun n => weights n *! sumf (fun j => Q n j *! f j x) 1 M) 1 M) by (intros; apply sumf_scal).
    transitivity (p 0 x +! dt *! (sumf weights 1 M *! v 0 x +! dt *! sumf (fun n => weights n *! sumf (fun j => Q n j *! f j x) 1 M) 1 M)
                  +! tauval taup M x); [ring|].
    rewrite <- sumf_scal_r, <- sumf_scal, <- sumf_add. do 3 f_equal. apply sumf_ext. intros; ring.
  Qed.
End VerletProofs.
