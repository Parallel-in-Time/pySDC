(* C18 — proofs about Model/FD.v: get_steps, soundness of the stencil and Neumann-row validators for every polynomial
   below the order, and the periodic assembly. *)
From Coq Require Import ZArith QArith Qabs List Bool Lia ZifyBool FinFun Permutation.
From PySDC Require Import Base.Dyadic Base.Poly Model.TransferOps Model.FD Proofs.TransferOpsProofs.
Import ListNotations.

Open Scope Z_scope.

(* zrange of Model/FD.v and zseq of Model/TransferOps.v are the same list *)
Lemma zrange_zseq n : forall lo, zrange lo n = zseq lo n.
Proof.
  unfold zrange. induction n as [|n IH]; intros lo; cbn [seq map zseq]; [reflexivity|].
  rewrite <- seq_shift, map_map, <- IH, Z.add_0_r. f_equal. apply map_ext. intros i. lia.
Qed.

Lemma zrange_length lo n : length (zrange lo n) = n.
Proof. rewrite zrange_zseq. apply zseq_length. Qed.

Lemma zrange_In lo n x : In x (zrange lo n) <-> lo <= x < lo + Z.of_nat n.
Proof. rewrite zrange_zseq. apply zseq_In. Qed.

Lemma zrange_NoDup lo n : NoDup (zrange lo n).
Proof. rewrite zrange_zseq. apply zseq_NoDup. Qed.

Lemma map_opp_NoDup l : NoDup l -> NoDup (map Z.opp l).
Proof. apply Injective_map_NoDup. intros a b H. lia. Qed.

Lemma map_opp_In l x : In x (map Z.opp l) <-> In (- x) l.
Proof.
  rewrite in_map_iff. split.
  - intros [y [<- Hy]]. rewrite Z.opp_involutive. exact Hy.
  - intros H. exists (- x). split; [lia | exact H].
Qed.

Lemma get_steps_length der ord st : 0 < der -> 0 < ord ->
  Z.of_nat (length (get_steps der ord st)) = steps_n der ord st.
Proof.
  intros Hd Ho. unfold get_steps. pose proof (Z.mod_pos_bound (der + 1) 2 eq_refl) as Hm.
  assert (Hn : 0 < steps_n der ord st) by (unfold steps_n; destruct st; lia).
  destruct st; [| | |destruct (_ <=? 3)]; rewrite ?app_length, ?map_length, !zrange_length; cbn [length]; lia.
Qed.

Lemma get_steps_NoDup der ord st : NoDup (get_steps der ord st).
Proof.
  unfold get_steps. destruct st; [| | |destruct (_ <=? 3)]; try apply map_opp_NoDup; try apply zrange_NoDup.
  apply (Permutation_NoDup (Permutation_cons_append _ 1)). constructor; [|apply zrange_NoDup].
  rewrite zrange_In. lia.
Qed.

Lemma get_steps_center_In der ord x :
  let n := steps_n der ord Center in
  In x (get_steps der ord Center) <-> - (n / 2) <= x < - (n / 2) + n.
Proof. unfold get_steps. cbv zeta. rewrite zrange_In. lia. Qed.

Lemma get_steps_forward_In der ord x : 0 < der -> 0 < ord ->
  In x (get_steps der ord Forward) <-> 0 <= x < ord + der.
Proof. intros Hd Ho. unfold get_steps, steps_n. rewrite zrange_In. lia. Qed.

Lemma get_steps_backward_In der ord x : 0 < der -> 0 < ord ->
  In x (get_steps der ord Backward) <-> - (ord + der) < x <= 0.
Proof. intros Hd Ho. unfold get_steps, steps_n. rewrite map_opp_In, zrange_In. lia. Qed.

Lemma get_steps_upwind_In der ord x :
  In x (get_steps der ord Upwind) <->
  (if ord + der <=? 3 then - (ord + der) < x <= 0 else - (ord + der - 2) <= x <= 1).
Proof.
  unfold get_steps, steps_n. destruct (ord + der <=? 3) eqn:E.
  - rewrite map_opp_In, zrange_In. lia.
  - rewrite in_app_iff, zrange_In. cbn [In]. lia.
Qed.

Open Scope Q_scope.

Definition Qsteps (steps : list Z) : list Q := map inject_Z steps.
Definition Qw (w : list dy) : list Q := map D2Q w.

Lemma D2Q_smoment steps : forall w k,
  D2Q (smoment steps w k) == moment (Qw w) (Qsteps steps) k.
Proof.
  unfold moment, Qw, Qsteps.
  induction steps as [|s steps IH]; intros [|wi w] k; cbn [smoment wsum map]; try reflexivity.
  rewrite D2Q_add, D2Q_mul, D2Q_dpow, D2Q_dZ, IH. reflexivity.
Qed.

(* the moments of  p |-> d! * (coefficient d of p)  *)
Definition dtarget (d k : nat) : Q := if Nat.eqb k d then inject_Z (zfact d) else 0.

Lemma D2Q_target d k : D2Q (target d k) == dtarget d k.
Proof. unfold target, dtarget. destruct (Nat.eqb k d); [apply D2Q_dZ | reflexivity]. Qed.

Lemma lin_from_dtarget a d : lin_from 0 a (dtarget d) == inject_Z (zfact d) * nth d a 0.
Proof. unfold dtarget. rewrite lin_from_delta, Nat.sub_0_r by lia. reflexivity. Qed.

Definition stencil_tol (steps : list Z) (w : list dy) (rtol : dy) (k : nat) : Q :=
  D2Q rtol * D2Q (smoment_abs steps w k).

Lemma check_moment_sound steps w d rtol k :
  check_moment steps w d rtol k = true ->
  Qabs (moment (Qw w) (Qsteps steps) k - dtarget d k) <= stencil_tol steps w rtol k.
Proof.
  unfold check_moment, stencil_tol. rewrite dleb_abs_sub_spec, D2Q_mul, D2Q_smoment, D2Q_target.
  intros H; exact H.
Qed.

(* In the reference variable t = (y - x) / h: an accepted stencil applied to a polynomial with at most n
   coefficients a_k returns d! a_d up to the stated bound. *)
Lemma stencil_moments steps w d rtol :
  check_stencil steps w d rtol = true ->
  forall a, (length a <= length steps)%nat ->
  Qabs (wsum (Qw w) (Qsteps steps) (peval a) - inject_Z (zfact d) * nth d a 0)
  <= abs_lin_from 0 a (stencil_tol steps w rtol).
Proof.
  intros Hc a Hlen. apply andb_prop in Hc as [_ Hall]. rewrite wsum_peval, <- lin_from_dtarget.
  exact (moment_checks_bound _ _ _ _ _ Hall (check_moment_sound steps w d rtol) a Hlen).
Qed.

(* back from the sample point x + t h to the reference variable *)
Lemma reference_variable x h t : ~ h == 0 -> (x + t * h - x) / h == t.
Proof. intros Hh. field. exact Hh. Qed.

(* Main theorem. A polynomial of degree < n is given by its coefficients a_0..a_{n-1} in the
   basis ((y - x)/h)^k centred at the evaluation point; its d-th derivative at x is then
   d! * a_d / h^d.  If the validator accepts the stencil, applying the stencil to the samples
   p(x + s_i h) yields h^d * p^(d)(x) = d! * a_d up to the stated bound, for EVERY such polynomial,
   every x and every h <> 0. *)
Theorem stencil_sound steps w d rtol :
  check_stencil steps w d rtol = true ->
  forall a, (length a <= length steps)%nat ->
  forall x h, ~ h == 0 ->
  Qabs (wsum (Qw w) (map (fun s => x + inject_Z s * h) steps) (fun y => peval a ((y - x) / h))
        - inject_Z (zfact d) * nth d a 0)
  <= abs_lin_from 0 a (stencil_tol steps w rtol).
Proof.
  intros Hc a Hlen x h Hh. rewrite wsum_affine, (wsum_ext _ _ _ (peval a)).
  - exact (stencil_moments steps w d rtol Hc a Hlen).
  - intro t. apply peval_ext, reference_variable, Hh.
Qed.

(* formal derivative of a coefficient list, and the moments of "evaluate the derivative at t" *)
Fixpoint pderiv_from (k : nat) (c : list Q) : list Q :=
  match c with [] => [] | a :: c' => (inject_Z (Z.of_nat k) * a) :: pderiv_from (S k) c' end.
Definition pderiv (c : list Q) : list Q := match c with [] => [] | _ :: c' => pderiv_from 1 c' end.
Definition qdmom (t : Q) (k : nat) : Q := match k with O => 0 | S k' => inject_Z (Z.of_nat k) * qpow t k' end.

Lemma peval_pderiv t c : peval (pderiv c) t == lin_from 0 c (qdmom t).
Proof.
  assert (H : forall c k, lin_from (S k) c (qdmom t) == qpow t k * peval (pderiv_from (S k) c) t).
  { clear c. induction c as [|a c IH]; intros k; cbn [lin_from pderiv_from]; rewrite ?peval_cons, ?IH;
      cbn [peval fold_right qdmom qpow]; ring. }
  destruct c as [|a c]; cbn [pderiv lin_from]; [reflexivity|]. rewrite H. cbn [qdmom qpow]. ring.
Qed.

Lemma D2Q_dmoment g k : D2Q (dmoment g k) == qdmom (inject_Z g) k.
Proof.
  destruct k as [|k]; cbn [dmoment qdmom]; [reflexivity|].
  rewrite D2Q_mul, D2Q_dZ, D2Q_dpow, D2Q_dZ. reflexivity.
Qed.

Definition neumann_tol (steps : list Z) (w : list dy) (c : dy) (g : Z) (rtol : dy) (k : nat) : Q :=
  D2Q rtol * D2Q (nmoment_abs steps w c g k).

Lemma check_nmoment_sound steps w c g d rtol k :
  check_nmoment steps w c g d rtol k = true ->
  Qabs ((moment (Qw w) (Qsteps steps) k + D2Q c * qdmom (inject_Z g) k) - dtarget d k)
    <= neumann_tol steps w c g rtol k.
Proof.
  unfold check_nmoment, neumann_tol, nmoment.
  rewrite dleb_abs_sub_spec, D2Q_mul, D2Q_add, D2Q_mul, D2Q_smoment, D2Q_dmoment, D2Q_target.
  intros H; exact H.
Qed.

(* The Neumann row in the reference variable. Only its local-basis dress neumann_row_sound is stated below; a global-basis
   version (through pshift, as for the stencil in Props/C18.v) would follow from this lemma in the same three lines. *)
Lemma neumann_moments steps w c g d rtol n :
  check_neumann_row steps w c g d rtol n = true ->
  forall a, (length a <= n)%nat ->
  Qabs (wsum (Qw w) (Qsteps steps) (peval a) + D2Q c * peval (pderiv a) (inject_Z g)
        - inject_Z (zfact d) * nth d a 0)
  <= abs_lin_from 0 a (neumann_tol steps w c g rtol).
Proof.
  intros Hc a Hlen. apply andb_prop in Hc as [_ Hall].
  rewrite wsum_peval, peval_pderiv, <- lin_from_scal, <- lin_from_add, <- lin_from_dtarget.
  exact (moment_checks_bound _ _ _ _ _ Hall (check_nmoment_sound steps w c g d rtol) a Hlen).
Qed.

(* A polynomial with at most n coefficients a_0.. in the basis ((y - x)/h)^k; its derivative with respect to y at the boundary
   point x + g h is  peval (pderiv a) g / h.  If the validator accepts the row, then
       sum_i w_i p(x + s_i h)  +  c * h * p'(x + g h)  =  h^d p^(d)(x) = d! a_d
   up to the stated bound, for EVERY such polynomial, every x and every h <> 0: the Neumann closure (matrix row plus the entry of
   the boundary vector for the prescribed derivative) is exact on these polynomials. *)
Theorem neumann_row_sound steps w c g d rtol n :
  check_neumann_row steps w c g d rtol n = true ->
  forall a, (length a <= n)%nat ->
  forall x h, ~ h == 0 ->
  Qabs (wsum (Qw w) (map (fun s => x + inject_Z s * h) steps) (fun y => peval a ((y - x) / h))
        + D2Q c * h * (peval (pderiv a) (((x + inject_Z g * h) - x) / h) / h)
        - inject_Z (zfact d) * nth d a 0)
  <= abs_lin_from 0 a (neumann_tol steps w c g rtol).
Proof.
  intros Hc a Hlen x h Hh.
  rewrite wsum_affine, (wsum_ext _ _ _ (peval a)) by (intro t; apply peval_ext, reference_variable, Hh).
  rewrite (peval_ext (pderiv a) _ (inject_Z g)) by (apply reference_variable, Hh).
  setoid_replace (D2Q c * h * (peval (pderiv a) (inject_Z g) / h)) with (D2Q c * peval (pderiv a) (inject_Z g))
    by (field; exact Hh).
  exact (neumann_moments steps w c g d rtol n Hc a Hlen).
Qed.

Open Scope Z_scope.

(* An offset |s| < size moves row r to r + s in (-size, 2 size). Exactly one of eye(size, s), eye(size, s - size),
   eye(size, s + size) can hold an entry of row r inside the matrix: the first if r + s is a column, the second if
   r + s lies beyond the last column, the third if it lies before the first; that entry is column (r + s) mod size. *)
Lemma D2Q_periodic_entry_1 size r c s wi :
  0 < size -> 0 <= r < size -> 0 <= c < size -> Z.abs s < size ->
  (D2Q (periodic_entry_1 size r c s wi) == D2Q (if (r + s) mod size =? c then wi else d0))%Q.
Proof.
  intros Hs Hr Hc Hab. unfold periodic_entry_1, eye_entry. rewrite (mod_window size (r + s)) by lia.
  replace (0 <=? c) with true by lia. replace (c <? size) with true by lia. rewrite !andb_true_r.
  destruct (Z.ltb_spec (r + s) 0); [|destruct (Z.ltb_spec (r + s) size)].
  - replace (c =? r + s) with false by lia. replace (c =? r + (- size + s)) with false by lia.
    replace (s <? 0) with true by lia. replace (c =? r + (size + s)) with (r + s + size =? c) by lia.
    rewrite andb_false_r, !D2Q_add, D2Q_d0. cbn [andb]. ring.
  - replace (c =? r + (- size + s)) with false by lia. replace (c =? r + (size + s)) with false by lia.
    replace (c =? r + s) with (r + s =? c) by lia.
    rewrite !andb_false_r, !D2Q_add, D2Q_d0. ring.
  - replace (c =? r + s) with false by lia. replace (c =? r + (size + s)) with false by lia.
    replace (0 <? s) with true by lia. replace (c =? r + (- size + s)) with (r + s - size =? c) by lia.
    rewrite andb_false_r, !D2Q_add, D2Q_d0. cbn [andb]. ring.
Qed.

(* every entry of the matrix the source assembles is the sum of the weights whose wrapped column (r + s_i) mod size
   is that entry's column *)
Theorem periodic_entry_is_wrap size steps : forall w r c,
  0 < size -> 0 <= r < size -> 0 <= c < size -> steps_small size steps = true ->
  (D2Q (periodic_entry size r c steps w) == D2Q (wrap_entry size r c steps w))%Q.
Proof.
  induction steps as [|s steps IH]; intros [|wi w] r c Hs Hr Hc Hsm; cbn [periodic_entry wrap_entry]; try reflexivity.
  cbn [steps_small forallb] in Hsm. apply andb_prop in Hsm as [H1 H2].
  rewrite !D2Q_add, IH, D2Q_periodic_entry_1 by (assumption || lia). reflexivity.
Qed.
